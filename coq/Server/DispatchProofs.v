From Coq Require Import List NArith Arith Bool Permutation.
From RPCX Require Import Server.Dispatch.
Import ListNotations.

Section DP.
Variable find : nat -> nat -> target.
Variable codec_ok : N -> bool.
Variable decodable : N -> nat -> bool.
Variable handler : nat -> nat -> nat -> hres.
Variable hmeta : nat -> nat -> nat -> list (nat * nat).

Notation process := (process find codec_ok decodable handler hmeta).
Notation cstep := (cstep find codec_ok decodable handler hmeta).
Notation crun := (crun find codec_ok decodable handler hmeta).

Definition stamped (q : sreq) (r : sresp) : Prop :=
  r_seq r = q_seq q /\ r_path r = q_path q /\ r_meth r = q_meth q /\ r_ser r = q_ser q.

(* C07: the text each failure kind is reported with; a handler's error text is carried unchanged *)
Definition failure_text (q : sreq) : option etext :=
  match find (q_path q) (q_meth q) with
  | TNoService => Some (XNoService (q_path q))
  | TNoMethod => Some (XNoMethod (q_meth q))
  | TRouter =>
    match handler (q_path q) (q_meth q) (q_args q) with
    | HFail t | HVeto t => Some (XExact t)
    | HPanic v => Some (XPanicExact v)
    | HReply _ => if codec_ok (q_ser q) then None else Some (XNoCodec (q_ser q))
    end
  | TMethod | TFunction =>
    if negb (codec_ok (q_ser q)) then Some (XNoCodec (q_ser q))
    else if negb (decodable (q_ser q) (q_args q)) then Some (XDecode (q_ser q) (q_args q))
    else match handler (q_path q) (q_meth q) (q_args q) with
         | HFail t | HVeto t => Some (XExact t)
         | HPanic v => Some (XPanic v)
         | HReply _ => None
         end
  end.

Definition handler_ran (q : sreq) : bool :=
  match find (q_path q) (q_meth q) with
  | TRouter => true
  | TMethod | TFunction =>
    codec_ok (q_ser q) && decodable (q_ser q) (q_args q) &&
    match handler (q_path q) (q_meth q) (q_args q) with HVeto _ => false | _ => true end
  | _ => false
  end.

(* The one answer of a request that is not a heartbeat: the request's identity, the failure's text if
   there is one (else the handler's payload), the handler's metadata if it ran.  What C04 and C07 say
   about [process] is read off this closed form. *)
Definition answer (q : sreq) : sresp :=
  with_meta (base q (if failure_text q then SError else SNormal) (failure_text q)
                  (match failure_text q, handler (q_path q) (q_meth q) (q_args q) with None, HReply p => p | _, _ => 0 end))
            (if handler_ran q then hmeta (q_path q) (q_meth q) (q_args q) else []).

Lemma process_answer q : q_hb q = false ->
  process q = (if q_oneway q then [] else [answer q],
               if handler_ran q then [(q_path q, q_meth q, q_args q)] else []).
Proof.
  intros Hh. unfold process. rewrite Hh. unfold handle_reflected, answer, failure_text, handler_ran.
  destruct (find (q_path q) (q_meth q)), (q_oneway q); try reflexivity;
    destruct (codec_ok (q_ser q)); try reflexivity;
    try (destruct (decodable (q_ser q) (q_args q)); [|reflexivity]);
    destruct (handler (q_path q) (q_meth q) (q_args q)); reflexivity.
Qed.

Theorem two_way_exactly_one q :
  q_hb q = false -> q_oneway q = false ->
  exists r, fst (process q) = [r] /\ stamped q r.
Proof. intros Hh Ho. exists (answer q). rewrite process_answer, Ho by exact Hh. split; [reflexivity|repeat split]. Qed.

Lemma veto_answer q t :
  find (q_path q) (q_meth q) = TMethod \/ find (q_path q) (q_meth q) = TFunction ->
  handler (q_path q) (q_meth q) (q_args q) = HVeto t ->
  handler_ran q = false /\
  (codec_ok (q_ser q) = true -> decodable (q_ser q) (q_args q) = true -> answer q = err_resp q (XExact t)).
Proof.
  intros Hf Hv. unfold answer, failure_text, handler_ran.
  destruct Hf as [-> | ->]; rewrite Hv, andb_false_r; (split; [reflexivity|intros -> ->; reflexivity]).
Qed.

Lemma take_rid_some rid l c q rest :
  take_rid rid l = (Some (c, q), rest) -> In (rid, c, q) l /\ incl rest l.
Proof.
  revert rest. induction l as [|[[r0 c0] q0] l IH]; intros rest; cbn; [discriminate|].
  destruct (Nat.eqb_spec r0 rid) as [->|Hne].
  - intros [= <- <- <-]. split; [now left|apply incl_tl, incl_refl].
  - destruct (take_rid rid l) as [x rest']. intros [= -> <-].
    destruct (IH rest' eq_refl) as [H1 H2]. split; [now right|].
    apply incl_cons; [now left|apply incl_tl, H2].
Qed.

Fixpoint reads (l : list (nat * nat * sreq)) : list cevent :=
  match l with [] => [] | (rid, c, q) :: r => CRead c rid q :: reads r end.

Lemma crun_app s a b : crun s (a ++ b) = crun (crun s a) b.
Proof. unfold Dispatch.crun. apply fold_left_app. Qed.

Lemma crun_reads l : forall s, crun s (reads l) = mkC (inflight s ++ l) (written s) (invoked s).
Proof.
  induction l as [|[[rid c] q] l IH]; intros s; cbn [reads].
  - cbn. rewrite app_nil_r. destruct s; reflexivity.
  - change (crun s (CRead c rid q :: reads l)) with (crun (cstep s (CRead c rid q)) (reads l)).
    rewrite IH. cbn [cstep inflight written invoked]. rewrite <- app_assoc. reflexivity.
Qed.

Definition frames_of (x : nat * nat * sreq) : list (nat * sresp) :=
  let '(_, c, q) := x in map (fun f => (c, f)) (fst (process q)).

Lemma take_rid_perm rid l : NoDup (map (fun x => fst (fst x)) l) ->
  forall c q, In (rid, c, q) l ->
  exists rest, take_rid rid l = (Some (c, q), rest) /\ Permutation l ((rid, c, q) :: rest).
Proof.
  induction l as [|[[r0 c0] q0] l IH]; intros Hnd c q Hin; [destruct Hin|].
  inversion Hnd as [|? ? Hn Hr]; subst. cbn [take_rid].
  destruct (Nat.eqb_spec r0 rid) as [->|Hne].
  - destruct Hin as [Hin|Hin].
    + injection Hin as -> ->. eexists. split; [reflexivity|apply Permutation_refl].
    + exfalso. apply Hn. apply in_map_iff. exists (rid, c, q). split; [reflexivity|exact Hin].
  - destruct Hin as [Hin|Hin]; [injection Hin as ? ? ?; congruence|].
    destruct (IH Hr c q Hin) as (rest & E & Hp). rewrite E. eexists. split; [reflexivity|].
    eapply Permutation_trans; [apply perm_skip, Hp|apply perm_swap].
Qed.

(* completions in ANY order, from any state whose in-flight requests have distinct ids: what is written is, in
   completion order, each completed request's own frames on its own connection *)
Lemma completions_written order : forall s,
  NoDup (map (fun x => fst (fst x)) (inflight s)) -> Permutation order (inflight s) ->
  written (crun s (map (fun x => CDone (fst (fst x))) order)) = written s ++ flat_map frames_of order.
Proof.
  induction order as [|[[rid c] q] order IH]; intros s Hnd Hp; [symmetry; apply app_nil_r|].
  cbn [map]. change (crun s (?e :: ?r)) with (crun (cstep s e) r). cbn [cstep fst].
  assert (Hin : In (rid, c, q) (inflight s)) by (apply (Permutation_in _ Hp); left; reflexivity).
  destruct (take_rid_perm rid _ Hnd c q Hin) as (rest & E & Hp2). rewrite E.
  destruct (process q) as [frames inv] eqn:Ep. rewrite IH; cbn [inflight written].
  - cbn [flat_map frames_of]. rewrite Ep. symmetry. apply app_assoc.
  - apply (Permutation_NoDup (Permutation_map _ Hp2)) in Hnd. now inversion Hnd.
  - apply Permutation_cons_inv with (a := (rid, c, q)). now rewrite Hp.
Qed.

End DP.
