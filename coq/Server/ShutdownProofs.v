(* Theorems about the graceful-shutdown model (Server/Shutdown.v), stated for any state that satisfies the invariants
   of Server/ShutdownInv.v; [Inv_reach] says that every reachable state does.  Properties/C16.v instantiates them. *)
From Coq Require Import List ZArith.
From RPCX Require Import Server.Shutdown Server.ShutdownStep Server.ShutdownInv.
Import ListNotations.

Section Proofs.
Variable info : nat -> rinfo.
Notation step := (step info).
Notation run := (run info).
Notation writes := (writes info).
Notation InvD := (InvD info).

Record Inv (s : st) : Prop := { Inv_A : InvA s; Inv_C : InvC s; Inv_D : InvD s }.

Lemma Inv_init : Inv init.
Proof. split; [apply InvA_init|apply InvC_init|apply InvD_init]. Qed.

Lemma Inv_step s e : Inv s -> Inv (step s e).
Proof.
  intros [HA HC HD]. split; [now apply InvA_step|now apply InvC_step|now apply InvD_step].
Qed.

Lemma Inv_run evs : forall s, Inv s -> Inv (run s evs).
Proof.
  induction evs as [|e evs IH]; intros s H; [exact H|]. apply IH. now apply Inv_step.
Qed.

Lemma Inv_reach evs : Inv (run init evs).
Proof. apply Inv_run, Inv_init. Qed.

Lemma late_step s e r : wasread (ph s r) -> late (step s e) r = late s r.
Proof.
  intros [H1 H2]. destruct (step_spec info s e) as [->|T]; [reflexivity|].
  cases T; try reflexivity. split_upd; congruence.
Qed.

Lemma wasread_step s e r : wasread (ph s r) -> wasread (ph (step s e) r).
Proof.
  intros W. destruct (step_spec info s e) as [->|T]; [exact W|].
  cases T; try exact W; split_upd; try exact W; try (split; discriminate). destruct W; congruence.
Qed.

Lemma wasread_run evs : forall s r, wasread (ph s r) -> wasread (ph (run s evs) r).
Proof.
  induction evs as [|e evs IH]; intros s r H; [exact H|]. apply IH. now apply wasread_step.
Qed.

Lemma late_run evs : forall s r, wasread (ph s r) -> late (run s evs) r = late s r.
Proof.
  induction evs as [|e evs IH]; intros s r H; [reflexivity|]. simpl.
  rewrite IH by (now apply wasread_step). now apply late_step.
Qed.

Lemma exited_step s e r : ph s r = PExited \/ ph s r = PDropped -> ph (step s e) r = ph s r.
Proof.
  intros H. destruct (step_spec info s e) as [->|T]; [reflexivity|].
  cases T; try reflexivity; split_upd; try reflexivity; intuition congruence.
Qed.

Lemma answered_step s e r : answered s r = true -> answered (step s e) r = true.
Proof.
  intros H. destruct (step_spec info s e) as [->|T]; [exact H|].
  cases T; try exact H; split_upd; auto.
Qed.

Lemma delivered_step s e r : InvD s -> answered s r = true -> delivered (step s e) r = delivered s r.
Proof.
  intros HD H. destruct (step_spec info s e) as [->|T]; [reflexivity|].
  cases T; try reflexivity; split_upd; try reflexivity.
  (* EWrite happens to a request that has no answer yet *)
  all: destruct (D_ans0 _ _ HD _ H); congruence.
Qed.

(* Past a wait loop that ended because the in-progress count was zero (not because the deadline expired), every
   request that had been read when the count was found zero has run to completion, and if it has a response, the
   response was written, and written to a connection that was still open unless the connection had been closed for
   a reason other than the shutdown. *)
Theorem drained s : Inv s -> polled s = true -> expired s = false ->
  forall r, wasread (ph s r) -> late s r = false ->
    (ph s r = PExited \/ ph s r = PDropped) /\
    (writes r = true -> ph s r = PExited ->
       answered s r = true /\ (delivered s r = true \/ closed_early s (r_conn (info r)))).
Proof.
  intros [HA HC HD] Hp He r Hr Hl.
  assert (Hin : In r (readlog s)) by (now apply (A_log _ HA)).
  pose proof (D_ok _ _ HD Hp He r Hin Hl) as Hc.
  assert (Hph : ph s r = PExited \/ ph s r = PDropped).
  { destruct Hr as [H1 H2]. destruct (ph s r); try discriminate; tauto. }
  split; [assumption|]. intros Hw Hx.
  assert (Ha : answered s r = true) by (apply (D_ans _ _ HD); tauto).
  split; [assumption|].
  destruct (delivered s r) eqn:Ed; [now left|right]. now apply (D_deliv _ _ HD).
Qed.

(* The same in terms of a history: a request read at any moment at which the wait loop of Shutdown has not ended yet
   (before Shutdown is called, or while it waits) is drained by the time Shutdown returns nil.  It is never late,
   whatever happens afterwards, and the caller that is done without error is past a successful poll. *)
Theorem drains s1 evs k r : Inv s1 -> polled s1 = false -> wasread (ph s1 r) ->
  let s2 := run s1 evs in
  sh s2 k = SDone false ->
    (ph s2 r = PExited \/ ph s2 r = PDropped) /\
    (writes r = true -> ph s2 r = PExited ->
       answered s2 r = true /\ (delivered s2 r = true \/ closed_early s2 (r_conn (info r)))).
Proof.
  intros Hi Hp Hr s2 Hk. pose proof (Inv_run evs s1 Hi) as Hi2. fold s2 in Hi2.
  generalize (C_sh _ (Inv_C _ Hi2) k). rewrite Hk. intros (_ & Hp2 & He2 & _).
  apply (drained s2 Hi2 Hp2 He2); [now apply wasread_run|].
  unfold s2. rewrite late_run by assumption.
  destruct (late s1 r) eqn:E; [|reflexivity]. apply (C_late _ (Inv_C _ Hi)) in E. congruence.
Qed.

(* Shutdown closes connections in ECloseConns only, which is enabled only past the wait loop; so do the readers
   that wait for doneChan *)
Theorem closed_by_shutdown_only_after_wait s c : Inv s ->
  cst s c = CClosed ByShutdown \/ cst s c = CClosed ByReaderDone ->
  polled s = true \/ closeCalled s = true.
Proof.
  intros [HA HC HD] [H|H]; [left; eapply D_byshut; eassumption|].
  apply (C_done _ HC). eapply D_bydone; eassumption.
Qed.

(* the count is exact, so the wait loop ends as soon as everything read has finished *)
Theorem poll_succeeds_when_idle s k : InvA s ->
  sh s k = SWaiting -> (forall r, wasread (ph s r) -> counted (ph s r) = false) ->
  sh (step s (EPoll k)) k = SClosing false.
Proof.
  intros HA Hk Hall.
  assert (Hz : count s = 0%Z).
  { rewrite (A_count _ HA). apply cnt_zero_iff. intros r Hr. apply Hall. now apply (A_log _ HA). }
  unfold step, Shutdown.step. rewrite Hk, Hz. simpl. now rewrite upd_same.
Qed.

Lemma completed_step s e : completed s -> completed (step s e).
Proof.
  intros (k & x & H). destruct (step_spec info s e) as [->|T]; [now exists k, x|].
  (* a caller that is done moves no more *)
  cases T; try (now exists k, x); (exists k, x; cbn; unfold upd; destruct (Nat.eqb_spec k k0) as [->|]; congruence).
Qed.

Lemma notread_step s e r : InvD s -> completed s -> ~ wasread (ph s r) -> ~ wasread (ph (step s e) r).
Proof.
  intros HD Hc Hn. destruct (step_spec info s e) as [->|T]; [exact Hn|].
  cases T; try exact Hn; split_upd; try exact Hn; try (intros [? ?]; congruence).
  (* every phase after PGot follows one in which the request was read already *)
  all: try (elim Hn; rewrite Hph; split; discriminate).
  (* ERead needs an open connection with a reader in its loop: there is none after completion *)
  destruct (D_compl _ _ HD Hc _ Hop); congruence.
Qed.

(* nothing is read, and no handler starts, for requests arriving after completion *)
Theorem no_read_after_completion s1 evs r : Inv s1 -> completed s1 -> ~ wasread (ph s1 r) ->
  ~ wasread (ph (run s1 evs) r) /\ ~ In r (started (run s1 evs)).
Proof.
  intros Hi Hc Hn.
  assert (H : ~ wasread (ph (run s1 evs) r)).
  { revert s1 Hc Hn Hi. induction evs as [|e evs IH]; intros s1 Hc Hn Hi; [exact Hn|].
    apply IH; [now apply completed_step|apply notread_step; [apply (Inv_D _ Hi)|assumption..]|now apply Inv_step]. }
  split; [assumption|]. intros Hin. apply H. now apply (D_started _ _ (Inv_D _ (Inv_run evs s1 Hi))).
Qed.

(* Serve returns ErrServerClosed *)
Theorem serve_returns_closed_after_completion s : InvC s -> completed s -> serve s = LAccepting ->
  serve (run s [EAcceptErr; EServeRet]) = LReturned true.
Proof.
  intros HC Hc Hs. destruct (compl_facts s HC Hc) as (Hin & Hd).
  pose proof (C_ln _ HC Hin) as Hl.
  assert (E1 : step s EAcceptErr = set_serve s LWaitDone).
  { unfold step, Shutdown.step. now rewrite Hs, Hl, Hin. }
  simpl. fold (step s EAcceptErr). rewrite E1. simpl. rewrite Hd. reflexivity.
Qed.

End Proofs.
