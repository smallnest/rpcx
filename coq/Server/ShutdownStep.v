(* The transitions of the graceful-shutdown model (Server/Shutdown.v) as guarded commands: [step s e] is [s]
   unless one of the rules of [tr] fires, and then it is that rule's target.  Proofs about [step] go through
   [step_spec] and the tactic [cases], so the big [match] is taken apart once, here. *)
From Coq Require Import List ZArith Bool.
From RPCX Require Import Server.Shutdown.
Import ListNotations.

Lemma upd_same {A} (f : nat -> A) k v : upd f k v k = v.
Proof. unfold upd. now rewrite Nat.eqb_refl. Qed.
Lemma upd_other {A} (f : nat -> A) k v x : x <> k -> upd f k v x = f x.
Proof. unfold upd. intros H. destruct (Nat.eqb_spec x k); congruence. Qed.

Lemma phase_eqb_eq a b : phase_eqb a b = true <-> a = b.
Proof. destruct a, b; split; intros H; try reflexivity; try discriminate. Qed.
Lemma is_reading_eq x : is_reading x = true -> x = RReading.
Proof. destruct x; simpl; congruence. Qed.
Lemma holds_eq x r : holds x r = true -> x = RHolding r.
Proof. destruct x; simpl; try congruence. intros H. apply Nat.eqb_eq in H. congruence. Qed.

Lemma close_conn_closed f c w c0 x :
  close_conn f c w c0 = CClosed x -> f c0 = CClosed x \/ (c0 = c /\ x = w /\ is_open (f c) = true).
Proof.
  unfold close_conn. destruct (is_open (f c)) eqn:E; [|auto]. unfold upd.
  destruct (Nat.eqb_spec c0 c) as [->|]; [|auto]. intros [= <-]. auto.
Qed.
Lemma close_conn_open f c w c0 : is_open (close_conn f c w c0) = true -> is_open (f c0) = true /\ c0 <> c.
Proof.
  unfold close_conn. destruct (is_open (f c)) eqn:E; unfold upd.
  - destruct (Nat.eqb_spec c0 c) as [->|]; [discriminate|auto].
  - intros H. split; [exact H|]. intros ->. congruence.
Qed.
Lemma close_conn_stays f c w c0 x : f c0 = CClosed x -> close_conn f c w c0 = CClosed x.
Proof.
  unfold close_conn. destruct (is_open (f c)) eqn:E; [|auto]. unfold upd.
  destruct (Nat.eqb_spec c0 c) as [->|]; [|auto]. intros H. rewrite H in E. discriminate.
Qed.
Lemma close_conn_mono f c w c0 : is_open (f c0) = false -> is_open (close_conn f c w c0) = false.
Proof.
  intros H. destruct (is_open (close_conn f c w c0)) eqn:E; [|reflexivity].
  apply close_conn_open in E as [E _]. congruence.
Qed.
Lemma close_conn_same f c w : is_open (close_conn f c w c) = false.
Proof.
  destruct (is_open (close_conn f c w c)) eqn:E; [|reflexivity]. apply close_conn_open in E as [_ E]. contradiction.
Qed.

Lemma close_active_closed s w c x :
  close_active s w c = CClosed x ->
  cst s c = CClosed x \/ (x = w /\ active s c = true /\ is_open (cst s c) = true).
Proof.
  unfold close_active. destruct (active s c); [|tauto].
  destruct (is_open (cst s c)); [|tauto]. intros H. inversion H. tauto.
Qed.
Lemma close_active_open s w c :
  is_open (close_active s w c) = true -> is_open (cst s c) = true /\ active s c = false.
Proof.
  unfold close_active. destruct (active s c); [|tauto].
  destruct (is_open (cst s c)) eqn:E; simpl; [discriminate|]. rewrite E. discriminate.
Qed.
Lemma close_active_stays s w c x : cst s c = CClosed x -> close_active s w c = CClosed x.
Proof. unfold close_active. intros H. rewrite H. now rewrite andb_false_r. Qed.
Lemma close_done_fst s : fst (close_done s) = true.
Proof. unfold close_done. destruct (done s); reflexivity. Qed.

(* setters for the fields the model writes as whole records, in the style of its set_rd, set_ph *)
Definition set_cst (s : st) (f : nat -> cstate) : st :=
  mkSt (inShutdown s) (count s) (done s) (closes s) (lnClosed s) f (active s) (rd s)
       (ph s) (answered s) (delivered s) (started s) (sh s) (serve s)
       (readlog s) (late s) (polled s) (expired s) (closeCalled s).
Definition set_active (s : st) (f : nat -> bool) : st :=
  mkSt (inShutdown s) (count s) (done s) (closes s) (lnClosed s) (cst s) f (rd s)
       (ph s) (answered s) (delivered s) (started s) (sh s) (serve s)
       (readlog s) (late s) (polled s) (expired s) (closeCalled s).
Definition set_answer (s : st) (a d : nat -> bool) : st :=
  mkSt (inShutdown s) (count s) (done s) (closes s) (lnClosed s) (cst s) (active s) (rd s)
       (ph s) a d (started s) (sh s) (serve s)
       (readlog s) (late s) (polled s) (expired s) (closeCalled s).
Definition set_started (s : st) (l : list nat) : st :=
  mkSt (inShutdown s) (count s) (done s) (closes s) (lnClosed s) (cst s) (active s) (rd s)
       (ph s) (answered s) (delivered s) l (sh s) (serve s)
       (readlog s) (late s) (polled s) (expired s) (closeCalled s).
Definition set_log (s : st) (l : list nat) (f : nat -> bool) : st :=
  mkSt (inShutdown s) (count s) (done s) (closes s) (lnClosed s) (cst s) (active s) (rd s)
       (ph s) (answered s) (delivered s) (started s) (sh s) (serve s)
       l f (polled s) (expired s) (closeCalled s).
(* inShutdown and the listener; the flags of the wait loop; the done channel and whether Close() was called *)
Definition set_shut (s : st) (i l : bool) : st :=
  mkSt i (count s) (done s) (closes s) l (cst s) (active s) (rd s)
       (ph s) (answered s) (delivered s) (started s) (sh s) (serve s)
       (readlog s) (late s) (polled s) (expired s) (closeCalled s).
Definition set_wait (s : st) (p e : bool) : st :=
  mkSt (inShutdown s) (count s) (done s) (closes s) (lnClosed s) (cst s) (active s) (rd s)
       (ph s) (answered s) (delivered s) (started s) (sh s) (serve s)
       (readlog s) (late s) p e (closeCalled s).
Definition set_done (s : st) (d : bool * nat) (c : bool) : st :=
  mkSt (inShutdown s) (count s) (fst d) (snd d) (lnClosed s) (cst s) (active s) (rd s)
       (ph s) (answered s) (delivered s) (started s) (sh s) (serve s)
       (readlog s) (late s) (polled s) (expired s) c.

Lemma exit_reader_cases s c :
  (inShutdown s = true /\ exit_reader s c = set_rd s c RWaitDone) \/
  (inShutdown s = false /\ exit_reader s c =
     set_rd (set_active (set_cst s (close_conn (cst s) c ByReaderExit)) (upd (active s) c false)) c RGone).
Proof.
  unfold exit_reader. destruct (inShutdown s) eqn:E; [left|right]; (split; [reflexivity|]);
    rewrite <- E at 1; reflexivity.
Qed.

Section Tr.
Variable info : nat -> rinfo.
Notation step := (step info).
Notation writes := (writes info).
Notation conn r := (r_conn (info r)).

Inductive tr (s : st) : event -> st -> Prop :=
| T_accept c (Hsv : serve s = LAccepting) (Hrd : rd s c = RNone) (Hln : lnClosed s = false) :
    tr s (EAccept c) (set_rd s c RAccepted)
| T_serve_late c (Hrd : rd s c = RAccepted) (Hin : inShutdown s = true) :
    tr s (EServe c) (set_rd (set_cst s (close_conn (cst s) c ByServeStart)) c RGone)
| T_serve c (Hrd : rd s c = RAccepted) (Hin : inShutdown s = false) :
    tr s (EServe c) (set_rd (set_active s (upd (active s) c true)) c RTop)
| T_top_exit c (Hrd : rd s c = RTop) (Hin : inShutdown s = true) : tr s (ETop c) (exit_reader s c)
| T_top c (Hrd : rd s c = RTop) (Hin : inShutdown s = false) : tr s (ETop c) (set_rd s c RReading)
| T_arrive r (Hph : ph s r = PNone) (Hop : is_open (cst s (conn r)) = true) : tr s (EArrive r) (set_ph s r PArrived)
| T_read r (Hrd : rd s (conn r) = RReading) (Hop : is_open (cst s (conn r)) = true) (Hph : ph s r = PArrived) :
    tr s (ERead r)
       (set_log (set_rd (set_ph (add_count s 1) r PGot) (conn r) (RHolding r))
                (r :: readlog s) (upd (late s) r (polled s)))
| T_read_err c (Hrd : rd s c = RReading) (Hop : is_open (cst s c) = false) : tr s (EReadErr c) (exit_reader s c)
| T_peer_close c : tr s (EPeerClose c) (set_cst s (close_conn (cst s) c ByPeer))
| T_spawn r (Hrd : rd s (conn r) = RHolding r) (Hph : ph s r = PGot)
    (Hk : r_kind (info r) = KNormal \/ r_kind (info r) = KHeartbeat) :
    tr s (EDispatch r) (set_rd (set_ph s r PSpawned) (conn r) RTop)
| T_refuse r (Hrd : rd s (conn r) = RHolding r) (Hph : ph s r = PGot)
    (Hk : r_kind (info r) = KLimit \/ r_kind (info r) = KAuthFail) :
    tr s (EDispatch r) (set_ph s r PAnswering)
| T_drop r (Hrd : rd s (conn r) = RHolding r) (Hph : ph s r = PGot) (Hk : r_kind (info r) = KReject) :
    tr s (EDispatch r) (exit_reader (add_count (set_ph s r PDropped) (-1)) (conn r))
| T_enter r (Hph : ph s r = PSpawned) : tr s (EEnter r) (set_ph s r PEntered)
| T_start_hb r (Hph : ph s r = PEntered) (Hk : r_kind (info r) = KHeartbeat) : tr s (EStart r) (set_ph s r PHandled)
| T_start r (Hph : ph s r = PEntered) (Hk : r_kind (info r) <> KHeartbeat) :
    tr s (EStart r) (set_started (set_ph s r PRunning) (started s ++ [r]))
| T_finish r (Hph : ph s r = PRunning) : tr s (EFinish r) (set_ph s r PHandled)
| T_write r (Hph : ph s r = PHandled \/ ph s r = PAnswering) (Hw : writes r = true) :
    tr s (EWrite r)
       (set_answer (set_ph s r PWritten) (upd (answered s) r true)
                   (upd (delivered s) r (is_open (cst s (conn r)))))
| T_write_none r (Hph : ph s r = PHandled \/ ph s r = PAnswering) (Hw : writes r = false) :
    tr s (EWrite r) (set_ph s r PWritten)
| T_exit_auth r (Hph : ph s r = PWritten) (Hrd : rd s (conn r) = RHolding r) (Hk : r_kind (info r) = KAuthFail) :
    tr s (EExit r) (exit_reader (add_count (set_ph s r PExited) (-1)) (conn r))
| T_exit_held r (Hph : ph s r = PWritten) (Hrd : rd s (conn r) = RHolding r) (Hk : r_kind (info r) <> KAuthFail) :
    tr s (EExit r) (set_rd (add_count (set_ph s r PExited) (-1)) (conn r) RTop)
| T_exit r (Hph : ph s r = PWritten) (Hrd : holds (rd s (conn r)) r = false) :
    tr s (EExit r) (add_count (set_ph s r PExited) (-1))
| T_wait_done c (Hrd : rd s c = RWaitDone) (Hdn : done s = true) :
    tr s (EWaitDone c)
       (set_rd (set_active (set_cst s (close_conn (cst s) c ByReaderDone)) (upd (active s) c false)) c RGone)
| T_shut_lost k (Hsh : sh s k = SIdle) (Hin : inShutdown s = true) : tr s (EShutBegin k) (set_sh s k SLost)
| T_shut_begin k (Hsh : sh s k = SIdle) (Hin : inShutdown s = false) :
    tr s (EShutBegin k) (set_sh (set_shut s true true) k SWaiting)
| T_poll k (Hsh : sh s k = SWaiting) (Hcnt : count s = 0%Z) :
    tr s (EPoll k) (set_sh (set_wait s true (expired s)) k (SClosing false))
| T_deadline k (Hsh : sh s k = SWaiting) : tr s (EDeadline k) (set_sh (set_wait s true true) k (SClosing true))
| T_close_conns k e (Hsh : sh s k = SClosing e) :
    tr s (ECloseConns k)
       (set_sh (set_active (set_cst (set_done s (close_done s) (closeCalled s)) (close_active s ByShutdown))
                           (fun _ => false)) k (SDone e))
| T_close :
    tr s EClose
       (set_active (set_cst (set_shut (set_done s (close_done s) true) (inShutdown s) true) (close_active s ByClose))
                   (fun _ => false))
| T_accept_err_wait (Hsv : serve s = LAccepting) (Hln : lnClosed s = true) (Hin : inShutdown s = true) :
    tr s EAcceptErr (set_serve s LWaitDone)
| T_accept_err (Hsv : serve s = LAccepting) (Hln : lnClosed s = true) (Hin : inShutdown s = false) :
    tr s EAcceptErr (set_serve s (LReturned false))
| T_serve_ret (Hsv : serve s = LWaitDone) (Hdn : done s = true) : tr s EServeRet (set_serve s (LReturned true)).

Lemma step_spec s e : step s e = s \/ tr s e (step s e).
Proof.
  destruct e; cbn [Shutdown.step].
  - destruct (serve s) eqn:?, (rd s c) eqn:?; auto. destruct (lnClosed s) eqn:?; [auto|right; now constructor].
  - destruct (rd s c) eqn:?; auto. right. destruct (inShutdown s) eqn:D; rewrite <- D at 1; now constructor.
  - destruct (rd s c) eqn:?; auto. right. destruct (inShutdown s) eqn:?; now constructor.
  - destruct (_ && _) eqn:E; auto. apply andb_true_iff in E as [E1 E2]. apply phase_eqb_eq in E1.
    right. now constructor.
  - destruct (_ && _) eqn:E; auto. apply andb_true_iff in E as [E E3]. apply andb_true_iff in E as [E1 E2].
    apply is_reading_eq in E1. apply phase_eqb_eq in E3. right. now constructor.
  - destruct (_ && _) eqn:E; auto. apply andb_true_iff in E as [E1 E2].
    apply is_reading_eq in E1. apply negb_true_iff in E2. right. now constructor.
  - right. constructor.
  - destruct (_ && _) eqn:E; auto. apply andb_true_iff in E as [E1 E2].
    apply holds_eq in E1. apply phase_eqb_eq in E2. right. destruct (r_kind (info r)) eqn:?; constructor; auto.
  - destruct (phase_eqb _ _) eqn:E; auto. apply phase_eqb_eq in E. right. now constructor.
  - destruct (phase_eqb _ _) eqn:E; auto. apply phase_eqb_eq in E. right.
    destruct (r_kind (info r)) eqn:K; try (apply T_start; [assumption|congruence]). now constructor.
  - destruct (phase_eqb _ _) eqn:E; auto. apply phase_eqb_eq in E. right. now constructor.
  - destruct (_ || _) eqn:E; auto. apply orb_true_iff in E. rewrite !phase_eqb_eq in E. right.
    destruct (Shutdown.writes info r) eqn:?; now constructor.
  - destruct (phase_eqb _ _) eqn:E; auto. apply phase_eqb_eq in E. right.
    destruct (holds _ _) eqn:E1; [|now constructor]. apply holds_eq in E1.
    destruct (r_kind (info r)) eqn:K; try (apply T_exit_held; [assumption..|congruence]). now constructor.
  - destruct (rd s c) eqn:?; auto. destruct (done s) eqn:D; auto. right. rewrite <- D at 1. now constructor.
  - destruct (sh s k) eqn:?; auto. right. destruct (inShutdown s) eqn:?; now constructor.
  - destruct (sh s k) eqn:?; auto. destruct (Z.eqb_spec (count s) 0); [right; now constructor|auto].
  - destruct (sh s k) eqn:?; auto. right. now constructor.
  - destruct (sh s k) eqn:?; auto. right. now constructor.
  - right. constructor.
  - destruct (serve s) eqn:?; auto. destruct (lnClosed s) eqn:?; auto.
    right. destruct (inShutdown s) eqn:?; now constructor.
  - destruct (serve s) eqn:?; auto. destruct (done s) eqn:?; [right; now constructor|auto].
Qed.
End Tr.

(* [cases T] for [T : tr info s e s']: one goal per rule, and one per alternative of the guard [Hph] of T_write and
   T_write_none (at the other rules a disjunction of that form in the caller's context is split instead), with the
   rule's guards in the context under their names, [exit_reader] resolved into its two cases ([Hsd] says which) and
   the fields of the target computed.  [destruct T] rewrites [step s e] in the goal only, so whatever else mentions
   it is reverted first (hence [revert r], [revert c who] before the calls). *)
Ltac fields :=
  cbn [inShutdown count done closes lnClosed cst active rd ph answered delivered started sh serve readlog late polled
       expired closeCalled set_rd set_ph set_sh set_serve add_count
       set_cst set_active set_answer set_started set_log set_shut set_wait set_done] in *.
Ltac cases T :=
  destruct T;
  repeat match goal with |- context [exit_reader ?x ?c] =>
           destruct (exit_reader_cases x c) as [[?Hsd ->]|[?Hsd ->]] end;
  try match goal with Hph : ph _ _ = _ \/ _ |- _ => destruct Hph as [Hph|Hph] end;
  fields.
Ltac split_upd :=
  unfold upd; repeat match goal with |- context [Nat.eqb ?a ?b] => destruct (Nat.eqb_spec a b) as [->|] end.
