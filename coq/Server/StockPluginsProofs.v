From Coq Require Import List Arith Bool Lia.
From RPCX Require Import Server.StockPlugins.
Import ListNotations.

Lemma blacklist_whitelist a l m : blacklist_admits a l m = negb (whitelist_admits a l m).
Proof. unfold blacklist_admits, whitelist_admits. now rewrite negb_andb. Qed.

Corollary empty_whitelist_refuses : forall addr_ok, whitelist_admits addr_ok false [] = false.
Proof. intros []; reflexivity. Qed.
Corollary empty_blacklist_admits : forall addr_ok, blacklist_admits addr_ok false [] = true.
Proof. intros []; reflexivity. Qed.

Lemma rate_run_spec : forall n capacity taken i,
  i < n -> nth i (rate_run capacity taken n) false = (taken + i <? capacity).
Proof.
  induction n as [|n IH]; intros capacity taken i Hi; [lia|].
  cbn [rate_run]. destruct i as [|i].
  - rewrite Nat.add_0_r. reflexivity.
  - cbn [nth]. rewrite IH by lia. unfold rate_pass.
    destruct (Nat.ltb_spec taken capacity) as [Hlt|Hge].
    + f_equal. lia.
    + rewrite !(proj2 (Nat.ltb_ge _ _)) by lia. reflexivity.
Qed.

(* from any fill of the bucket: exactly the tokens that are left pass *)
Lemma rate_run_passes capacity : forall n taken,
  length (filter (fun b => b) (rate_run capacity taken n)) = Nat.min (capacity - taken) n.
Proof.
  induction n as [|m IH]; intros taken; [cbn; lia|].
  cbn [rate_run filter]. unfold rate_pass. destruct (Nat.ltb_spec taken capacity); cbn [length]; rewrite IH; lia.
Qed.
