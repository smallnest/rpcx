(* Invariants of the graceful-shutdown model (Server/Shutdown.v): the in-progress count is exact (InvA), the control
   state - Shutdown callers, listener, done channel - is coherent (InvC), requests and connections (InvD).  Each
   clause is shown to survive a step by going through the rules of Server/ShutdownStep.v: most rules do not touch
   what the clause reads, and the proof says what happens at those that do. *)
From Coq Require Import List ZArith Lia.
From RPCX Require Import Server.Shutdown Server.ShutdownStep.

Definition bz (b : bool) : Z := if b then 1%Z else 0%Z.

Definition cnt (f : nat -> phase) (l : list nat) : Z :=
  Z.of_nat (length (filter (fun r => counted (f r)) l)).

Lemma cnt_cons f r l : cnt f (r :: l) = (bz (counted (f r)) + cnt f l)%Z.
Proof. unfold cnt. simpl. destruct (counted (f r)); simpl length; unfold bz; lia. Qed.

Lemma cnt_upd_notin f r p l : ~ In r l -> cnt (upd f r p) l = cnt f l.
Proof.
  induction l as [|x l IH]; intros H; [reflexivity|].
  rewrite !cnt_cons. rewrite IH by (intros H1; apply H; now right).
  rewrite upd_other; [reflexivity|]. intros ->. apply H. now left.
Qed.

Lemma cnt_upd_in f r p l : NoDup l -> In r l ->
  cnt (upd f r p) l = (cnt f l + bz (counted p) - bz (counted (f r)))%Z.
Proof.
  induction l as [|x l IH]; intros Hnd Hin; [destruct Hin|].
  inversion Hnd as [|? ? Hx Hnd']. rewrite !cnt_cons.
  destruct Hin as [->|Hin].
  - rewrite upd_same. rewrite cnt_upd_notin by assumption. lia.
  - rewrite IH by assumption. rewrite upd_other; [lia|]. intros ->. contradiction.
Qed.

Lemma cnt_zero_iff f l : cnt f l = 0%Z <-> forall r, In r l -> counted (f r) = false.
Proof.
  induction l as [|x l IH]; [split; [intros _ r []|reflexivity]|].
  rewrite cnt_cons. assert (0 <= cnt f l)%Z by (unfold cnt; lia). split.
  - intros H0 r [<-|Hin].
    + destruct (counted (f x)); [unfold bz in H0; lia|reflexivity].
    + apply IH; [|exact Hin]. destruct (counted (f x)); unfold bz in H0; lia.
  - intros Hall. rewrite (Hall x (or_introl eq_refl)). apply IH. intros r Hr. apply Hall. now right.
Qed.

Section Proofs.
Variable info : nat -> rinfo.
Notation step := (step info).
Notation writes := (writes info).

Definition wasread (p : phase) : Prop := p <> PNone /\ p <> PArrived.

Record InvA (s : st) : Prop := {
  A_count : count s = cnt (ph s) (readlog s);
  A_nodup : NoDup (readlog s);
  A_log : forall r, In r (readlog s) <-> wasread (ph s r) }.

Lemma InvA_init : InvA init.
Proof. split; simpl; [reflexivity|constructor|]. intros r; split; [intros []|intros [H _]; congruence]. Qed.

Lemma InvA_set_ph s s' r p0 p :
  InvA s -> ph s r = p0 -> wasread p0 -> wasread p ->
  ph s' = upd (ph s) r p -> readlog s' = readlog s ->
  count s' = (count s + bz (counted p) - bz (counted p0))%Z ->
  InvA s'.
Proof.
  intros [Hc Hn Hl] <- Hr Hp Eph Elog Ecnt. split.
  - rewrite Ecnt, Eph, Elog, Hc. rewrite cnt_upd_in; [lia|assumption|]. now apply Hl.
  - now rewrite Elog.
  - intros x. rewrite Elog, Eph. destruct (Nat.eq_dec x r) as [->|Hx].
    + rewrite upd_same. split; intros _; [assumption|now apply Hl].
    + rewrite upd_other by assumption. apply Hl.
Qed.

Lemma InvA_same s s' :
  InvA s -> ph s' = ph s -> readlog s' = readlog s -> count s' = count s -> InvA s'.
Proof. intros [Hc Hn Hl] E1 E2 E3. split; rewrite ?E1, ?E2, ?E3; assumption. Qed.

Lemma InvA_step s e : InvA s -> InvA (step s e).
Proof.
  intros HA. destruct (step_spec info s e) as [->|T]; [exact HA|].
  cases T; try (apply (InvA_same s); [exact HA|reflexivity ..]).
  (* every other rule moves one request that was read to a later phase: the new ph and log are as InvA_set_ph wants
     them, the count follows, and both phases are past PArrived *)
  all: try (eapply (InvA_set_ph s _ r _ _ HA Hph); [| |reflexivity|reflexivity|fields; cbv [bz counted]; lia];
            split; discriminate).
  - (* EArrive: not read yet, so not in the log *)
    destruct HA as [Hc Hn Hl].
    assert (Hnin : ~ In r (readlog s)) by (intros Hin; apply Hl in Hin; destruct Hin; congruence).
    split; cbn; [now rewrite cnt_upd_notin|assumption|].
    intros x. unfold upd. destruct (Nat.eqb_spec x r) as [->|]; [|apply Hl].
    split; [contradiction|intros [_ ?]; congruence].
  - (* ERead: enters the log, counted *)
    destruct HA as [Hc Hn Hl].
    assert (Hnin : ~ In r (readlog s)) by (intros Hin; apply Hl in Hin; destruct Hin; congruence).
    split; cbn.
    + rewrite cnt_cons, upd_same, cnt_upd_notin by assumption. cbv [bz counted]; lia.
    + now constructor.
    + intros x. unfold upd. destruct (Nat.eqb_spec x r) as [->|Hx].
      * split; [intros _; split; discriminate|intros _; now left].
      * rewrite <- Hl. split; [intros [?|?]; [congruence|assumption]|now right].
Qed.

Definition winner (x : shphase) : Prop :=
  match x with SWaiting | SClosing _ | SDone _ => True | _ => False end.
Definition completed (s : st) : Prop := exists k e, sh s k = SDone e.

Definition sh_ok (s : st) (x : shphase) : Prop :=
  match x with
  | SWaiting => inShutdown s = true /\ polled s = false /\ expired s = false
  | SClosing e => inShutdown s = true /\ polled s = true /\ expired s = e
  | SDone e => inShutdown s = true /\ polled s = true /\ expired s = e /\ done s = true /\
               forall c, active s c = false
  | SIdle | SLost => True
  end.

Record InvC (s : st) : Prop := {
  C_sh : forall k, sh_ok s (sh s k);
  C_win_uniq : forall k1 k2, winner (sh s k1) -> winner (sh s k2) -> k1 = k2;
  (* before any Shutdown no wait loop has ended: what SWaiting says of the first caller *)
  C_pre : inShutdown s = false -> polled s = false /\ expired s = false;
  C_ln : inShutdown s = true -> lnClosed s = true;
  (* only Shutdown and Close() close the listener: why Serve returns another error only after Close() (C_serve) *)
  C_lnc : lnClosed s = true -> inShutdown s = true \/ closeCalled s = true;
  C_closes : closes s = if done s then 1 else 0;
  (* doneChan is closed past a wait loop or by Close(): a reader that closes its connection after doneChan does not
     close it under a request that is still waited for (last case of closed_while_counted) *)
  C_done : done s = true -> polled s = true \/ closeCalled s = true;
  C_serve : match serve s with
            | LAccepting => True
            | LWaitDone => inShutdown s = true
            | LReturned true => done s = true /\ inShutdown s = true
            | LReturned false => closeCalled s = true
            end;
  C_late : forall r, late s r = true -> polled s = true }.

Lemma InvC_init : InvC init.
Proof. split; simpl; auto; contradiction. Qed.

Lemma compl_facts s : InvC s -> completed s -> inShutdown s = true /\ done s = true.
Proof using. intros HC (k & e & H). generalize (C_sh s HC k). rewrite H. intros (? & _ & _ & ? & _). auto. Qed.

(* the fields InvC reads, [active] apart; only ERead ([late]) and the Shutdown / Close / listener rules write them *)
Definition ctl (s : st) :=
  (inShutdown s, sh s, polled s, expired s, lnClosed s, closeCalled s, closes s, done s, serve s, late s).

Lemma InvC_same s s' :
  InvC s -> ctl s' = ctl s -> (forall c, active s c = false -> active s' c = false) -> InvC s'.
Proof.
  intros [] [= E1 E2 E3 E4 E5 E6 E7 E8 E9 E10] Ea.
  split; rewrite ?E1, ?E2, ?E3, ?E4, ?E5, ?E6, ?E7, ?E8, ?E9, ?E10; try assumption.
  intros k. generalize (C_sh0 k). destruct (sh s k); cbn; rewrite ?E1, ?E3, ?E4, ?E8; intuition.
Qed.

Lemma sole_winner_sh s' (f : nat -> shphase) k y :
  (forall k0, winner (f k0) -> k0 = k) -> sh_ok s' y -> forall k0, sh_ok s' (upd f k y k0).
Proof.
  intros Hu Hy k0. unfold upd. destruct (Nat.eqb_spec k0 k) as [->|Hne]; [exact Hy|].
  destruct (f k0) eqn:E; try exact I; elim Hne; apply Hu; rewrite E; exact I.
Qed.
Lemma sole_winner_uniq (f : nat -> shphase) k y :
  (forall k0, winner (f k0) -> k0 = k) -> forall k1 k2, winner (upd f k y k1) -> winner (upd f k y k2) -> k1 = k2.
Proof.
  intros Hu. enough (H : forall k1, winner (upd f k y k1) -> k1 = k) by (intros k1 k2 H1 H2; rewrite (H k1 H1), (H k2 H2); reflexivity).
  intros k1. unfold upd. destruct (Nat.eqb_spec k1 k); auto.
Qed.

Lemma winner_facts s k x : InvC s -> sh s k = x -> winner x -> (forall k0, winner (sh s k0) -> k0 = k) /\ sh_ok s x.
Proof using. intros HC <- W. split; [intros k0 W0; now apply (C_win_uniq s HC)|apply HC]. Qed.

Lemma InvC_step s e : InvC s -> InvC (step s e).
Proof.
  intros HC. destruct (step_spec info s e) as [->|T]; [exact HC|].
  cases T; try (apply (InvC_same s); [exact HC|reflexivity|now (intros c0; cbn; split_upd)]).
  - (* EServe outside a shutdown: no caller is done *)
    destruct HC; split; fields; auto.
    intros k. generalize (C_sh0 k). destruct (sh s k); cbn; try tauto. intros (? & _). congruence.
  - (* ERead: a request read after a successful poll is late *)
    destruct HC; split; fields; auto.
    intros r0. unfold upd. destruct (Nat.eqb r0 r); [auto|apply C_late0].
  - (* EShutBegin by a later caller: it loses the race, nothing else changes *)
    destruct HC; split; fields; auto.
    + intros k0. unfold upd. destruct (Nat.eqb k0 k); [exact I|apply C_sh0].
    + intros k1 k2. unfold upd. destruct (Nat.eqb_spec k1 k), (Nat.eqb_spec k2 k); try contradiction. auto.
  - (* EShutBegin by the first caller: nobody had won, since inShutdown was clear *)
    assert (Hu : forall k0, winner (sh s k0) -> k0 = k).
    { intros k0 W. generalize (C_sh s HC k0). destruct (sh s k0); cbn in *; intuition congruence. }
    destruct HC; split; fields; auto.
    + apply sole_winner_sh; [exact Hu|cbn; tauto].
    + apply sole_winner_uniq, Hu.
    + destruct (serve s) as [| |[]]; tauto.
  - (* EPoll *)
    destruct (winner_facts s k _ HC Hsh I) as [Hu Hk]. cbn in Hk.
    destruct HC; split; fields; auto.
    + apply sole_winner_sh; [exact Hu|cbn; tauto].
    + apply sole_winner_uniq, Hu.
    + intuition congruence.
  - (* EDeadline *)
    destruct (winner_facts s k _ HC Hsh I) as [Hu Hk]. cbn in Hk.
    destruct HC; split; fields; auto.
    + apply sole_winner_sh; [exact Hu|cbn; tauto].
    + apply sole_winner_uniq, Hu.
    + intuition congruence.
  - (* ECloseConns: the caller is past its wait loop, so polled is set when done is *)
    destruct (winner_facts s k _ HC Hsh I) as [Hu Hk]. cbn in Hk.
    destruct HC; split; fields; auto.
    + apply sole_winner_sh; [exact Hu|cbn; rewrite close_done_fst; tauto].
    + apply sole_winner_uniq, Hu.
    + unfold close_done. rewrite C_closes0. destruct (done s); reflexivity.
    + tauto.
    + rewrite close_done_fst. destruct (serve s) as [| |[]]; tauto.
  - (* EClose *)
    destruct HC; split; fields; auto.
    + intros k. generalize (C_sh0 k). destruct (sh s k); cbn; rewrite ?close_done_fst; tauto.
    + unfold close_done. rewrite C_closes0. destruct (done s); reflexivity.
    + rewrite close_done_fst. destruct (serve s) as [| |[]]; tauto.
  - (* EAcceptErr during a shutdown *)
    destruct HC; split; fields; auto.
  - (* EAcceptErr outside a shutdown: the listener was closed by Close *)
    destruct HC; split; fields; auto. destruct (C_lnc0 Hln); congruence.
  - (* EServeRet *)
    destruct HC; split; fields; auto. rewrite Hsv in C_serve0. auto.
Qed.

Definition reader_live (x : rstate) : Prop :=
  match x with RTop | RReading | RHolding _ | RWaitDone => True | _ => False end.
(* the connection is closed: by the peer, by its reader outside a shutdown, by serveConn starting on a server that
   shuts down, or by anyone at all once Close() has been called *)
Definition closed_early (s : st) (c : nat) : Prop :=
  exists who, cst s c = CClosed who /\
    (who = ByPeer \/ who = ByReaderExit \/ who = ByServeStart \/ closeCalled s = true).

(* D_ok: the drain - past a wait loop that ended with a zero count, no request of the log is still counted, except
   those read after that poll (late).
   D_deliv: an answer that was not delivered, to a request that is not late and without the deadline expiring, means
   that the connection was closed early. *)
Record InvD (s : st) : Prop := {
  D_ans : forall r, ph s r = PWritten \/ ph s r = PExited -> writes r = true -> answered s r = true;
  D_ans0 : forall r, answered s r = true -> ph s r = PWritten \/ ph s r = PExited;
  D_ok : polled s = true -> expired s = false ->
         forall r, In r (readlog s) -> late s r = false -> counted (ph s r) = false;
  D_byshut : forall c, cst s c = CClosed ByShutdown -> polled s = true;
  D_bydone : forall c, cst s c = CClosed ByReaderDone -> done s = true;
  D_byclose : forall c, cst s c = CClosed ByClose -> closeCalled s = true;
  D_deliv : forall r, answered s r = true -> delivered s r = false -> late s r = false -> expired s = false ->
            closed_early s (r_conn (info r));
  D_act : forall c, reader_live (rd s c) -> is_open (cst s c) = true -> active s c = true;
  D_gone : forall c, rd s c = RGone -> is_open (cst s c) = false;
  D_compl : completed s -> forall c, is_open (cst s c) = true -> rd s c = RNone \/ rd s c = RAccepted;
  D_started : forall r, In r (started s) -> wasread (ph s r) }.

Lemma InvD_init : InvD init.
Proof.
  split; simpl; try (intros; discriminate); try tauto.
  all: try (intros r [H|H]; discriminate).
Qed.

Lemma closed_early_mono s s' c :
  closed_early s c -> (forall who, cst s c = CClosed who -> cst s' c = CClosed who) ->
  (closeCalled s = true -> closeCalled s' = true) -> closed_early s' c.
Proof using. intros (who & H1 & H2) Hc Hcc. exists who. split; [now apply Hc|]. destruct H2 as [?|[?|[?|?]]]; auto. Qed.

End Proofs.

(* why a connection may have been closed by [who]: D_byshut, D_bydone, D_byclose in one *)
Definition justified (s : st) (who : closer) : Prop :=
  match who with
  | ByShutdown => polled s = true
  | ByReaderDone => done s = true
  | ByClose => closeCalled s = true
  | _ => True
  end.

Section StepD.
Variable info : nat -> rinfo.
Notation step := (step info).
Notation writes := (writes info).
Notation InvD := (InvD info).
Notation conn r := (r_conn (info r)).
Variables (s : st) (e : event).
Hypotheses (HA : InvA s) (HC : InvC s) (HD : InvD s) (T : tr info s e (step s e)).

Lemma ans_step r : ph (step s e) r = PWritten \/ ph (step s e) r = PExited -> writes r = true -> answered (step s e) r = true.
Proof.
  revert r. cases T; try apply (D_ans _ _ HD).
  all: intros r0; unfold upd; destruct (Nat.eqb_spec r0 r) as [->|]; try apply (D_ans _ _ HD).
  (* r moves to a phase before PWritten *)
  all: try (intros [?|?]; discriminate).
  (* EWrite: answered r is set, or r has no response *)
  all: try congruence.
  (* EExit: r was answered when it was written *)
  all: intros _ ?; apply (D_ans _ _ HD); auto.
Qed.

Lemma ans0_step r : answered (step s e) r = true -> ph (step s e) r = PWritten \/ ph (step s e) r = PExited.
Proof.
  revert r. cases T; try apply (D_ans0 _ _ HD).
  all: intros r0; unfold upd; destruct (Nat.eqb_spec r0 r) as [->|]; try apply (D_ans0 _ _ HD); auto.
  (* r leaves a phase before PWritten: it had no answer *)
  all: intros Ha; destruct (D_ans0 _ _ HD _ Ha); intuition congruence.
Qed.

Lemma started_step r : In r (started (step s e)) -> wasread (ph (step s e) r).
Proof.
  revert r. cases T; try apply (D_started _ _ HD).
  all: intros r0; unfold upd; destruct (Nat.eqb_spec r0 r) as [->|]; try apply (D_started _ _ HD).
  all: try (intros _; split; discriminate).
  - (* EArrive: a request that has not arrived was not started *)
    intros Hi. apply (D_started _ _ HD) in Hi. destruct Hi; congruence.
  - (* EStart of another request *)
    intros [Hi|[<-|[]]]%in_app_iff; [now apply (D_started _ _ HD)|congruence].
Qed.

Lemma closer_step c who : cst (step s e) c = CClosed who -> justified (step s e) who.
Proof.
  assert (J : forall c who, cst s c = CClosed who -> justified s who).
  { intros c0 [] Hc; try exact I; [eapply D_byshut|eapply D_byclose|eapply D_bydone]; eauto. }
  revert c who. cases T; try exact J.
  (* a single close: either the connection was closed before, by the same closer, or by this rule's *)
  all: intros c0 who Hc; try apply close_conn_closed in Hc as [Hc|(-> & -> & _)]; try exact I; try exact (J _ _ Hc).
  (* the flags only go up *)
  all: try (apply J in Hc; destruct who; cbn in *; auto; fail).
  - (* EWaitDone closes after doneChan *) assumption.
  - (* ECloseConns sweeps past the wait loop *)
    apply close_active_closed in Hc as [Hc|(-> & _)]; [apply J in Hc; destruct who; cbn in *; auto using close_done_fst|].
    generalize (C_sh _ HC k). rewrite Hsh. cbn. tauto.
  - (* Close *)
    apply close_active_closed in Hc as [Hc|(-> & _)]; [apply J in Hc; destruct who; cbn in *; auto using close_done_fst|].
    reflexivity.
Qed.

Lemma act_step c : reader_live (rd (step s e) c) -> is_open (cst (step s e) c) = true -> active (step s e) c = true.
Proof.
  pose proof (D_act _ _ HD) as A.
  revert c. cases T; try exact A.
  all: intros c0; split_upd; try apply A; try contradiction; auto.
  (* the reader of c goes from one live state to another *)
  all: try (intros _; apply A; rewrite Hrd; exact I).
  (* a connection that is open after a close was open before, and is another one *)
  all: try (intros L [O N]%close_conn_open; auto; fail).
  (* the sweeps leave open only what was not active *)
  all: try (intros L [O N]%close_active_open; rewrite (A _ L O) in N; discriminate).
Qed.

Lemma gone_step c : rd (step s e) c = RGone -> is_open (cst (step s e) c) = false.
Proof.
  pose proof (D_gone _ _ HD) as G.
  revert c. cases T; try exact G.
  (* a reader goes only together with the close of its connection, and what is closed stays closed *)
  all: intros c0; split_upd; try discriminate; auto using close_conn_mono, close_conn_same.
  all: intros Hg; apply G in Hg; destruct (is_open (close_active _ _ _)) eqn:E; [|reflexivity].
  all: apply close_active_open in E as [E _]; congruence.
Qed.

(* the final sweep emptied activeConn and nothing is added during a shutdown: a reader that is still live has its
   connection closed (D_act), one that is gone has closed it (D_gone) *)
Lemma compl_step : completed (step s e) ->
  forall c, is_open (cst (step s e) c) = true -> rd (step s e) c = RNone \/ rd (step s e) c = RAccepted.
Proof.
  intros (k & x & Hk) c O. generalize (C_sh _ (InvC_step info s e HC) k). rewrite Hk. intros (_ & _ & _ & _ & N). specialize (N c).
  destruct (rd (step s e) c) eqn:R; auto.
  all: try (rewrite act_step in N; [discriminate|rewrite R; exact I|exact O]).
  rewrite (gone_step _ R) in O. discriminate.
Qed.

Lemma drained_step : polled (step s e) = true -> expired (step s e) = false ->
  forall r, In r (readlog (step s e)) -> late (step s e) r = false -> counted (ph (step s e) r) = false.
Proof.
  pose proof (D_ok _ _ HD) as K.
  cases T; try exact K.
  all: intros Hp He r0; split_upd; try exact (K Hp He _); try reflexivity; try discriminate.
  (* a request in a counted phase moves on: it was not counted, by the invariant *)
  all: try (intros Hi Hl; pose proof (K Hp He _ Hi Hl) as C; rewrite Hph in C; discriminate).
  - (* ERead: read past a successful poll, the request is late *) congruence.
  - (* ERead of another request *) intros [->|Hi]; [contradiction|exact (K Hp He _ Hi)].
  - (* EPoll found the count zero, and the count is exact *)
    intros Hi _. apply (proj1 (cnt_zero_iff (ph s) (readlog s))); [|exact Hi]. now rewrite <- (A_count _ HA).
Qed.

(* A request that is still counted and not late: no poll has succeeded yet (D_ok), so if its connection is closed,
   it was closed neither by the shutdown's sweep nor by a reader after doneChan *)
Lemma closed_while_counted r : counted (ph s r) = true -> late s r = false -> expired s = false ->
  is_open (cst s (conn r)) = false -> closed_early s (conn r).
Proof using HA HC HD.
  intros Hc Hl He Ho.
  assert (Hin : In r (readlog s)) by (apply (A_log _ HA); split; intros E; rewrite E in Hc; discriminate).
  assert (Hnp : polled s = true -> False).
  { intros Hp. rewrite (D_ok _ _ HD Hp He r Hin Hl) in Hc. discriminate. }
  destruct (cst s (conn r)) as [|who] eqn:Ec; [discriminate|].
  exists who. split; [exact Ec|]. destruct who; auto.
  - exfalso. eapply Hnp, D_byshut; eauto.
  - right; right; right. eapply D_byclose; eauto.
  - destruct (C_done _ HC (D_bydone _ _ HD _ Ec)); [contradiction|auto].
Qed.

Lemma deliv_step r : answered (step s e) r = true -> delivered (step s e) r = false -> late (step s e) r = false ->
  expired (step s e) = false -> closed_early (step s e) (conn r).
Proof.
  pose proof (D_deliv _ _ HD) as K.
  revert r. cases T; try exact K.
  all: intros r0; split_upd; try discriminate.
  (* closing more connections, or calling Close, keeps a connection closed early *)
  all: try (intros Ha Hd Hl He; apply (closed_early_mono _ _ _ (K r0 Ha Hd Hl He)); cbn;
            auto using close_conn_stays, close_active_stays; fail).
  (* EWrite on a closed connection *)
  all: try (intros _ Ho Hl He; apply closed_while_counted; auto; rewrite Hph; reflexivity).
  (* ERead: a request that is only now read has no answer yet *)
  intros Ha. destruct (D_ans0 _ _ HD _ Ha); congruence.
Qed.

Lemma InvD_step_tr : InvD (step s e).
Proof.
  split; [exact ans_step|exact ans0_step|exact drained_step| | | |exact deliv_step|exact act_step|exact gone_step|
          exact compl_step|exact started_step]; intros c Hc; exact (closer_step c _ Hc).
Qed.
End StepD.

Lemma InvD_step info s e : InvA s -> InvC s -> InvD info s -> InvD info (step info s e).
Proof.
  intros HA HC HD. destruct (step_spec info s e) as [E|T]; [rewrite E; exact HD|]. now apply InvD_step_tr.
Qed.
