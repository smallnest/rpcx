(* Proofs about the header-level model of the HTTP front ends (Server/Gateway.v):
   decimal and query-string round trips, what counts as malformed, facts about last_dot used for the JSON-RPC split. *)
From Coq Require Import List NArith ZArith Bool Lia.
From RPCX Require Import Wire.Bytes Server.Gateway.
Import ListNotations.
Open Scope N_scope.

Definition range (n : nat) : list N := map N.of_nat (seq 0 n).
(* facts about a single byte, or a single small number, are checked by evaluating [P] on all of them *)
Lemma sweep : forall (P : N -> bool) n, forallb P (range n) = true -> forall v, v < N.of_nat n -> P v = true.
Proof.
  intros P n H v Hv. rewrite forallb_forall in H. apply H. apply in_map_iff.
  exists (N.to_nat v). split; [lia|]. apply in_seq. lia.
Qed.

Lemma digits_val_app : forall x y a,
  digits_val a (x ++ y) = match digits_val a x with Some a' => digits_val a' y | None => None end.
Proof.
  induction x as [|c x IH]; intros y a; cbn [app digits_val]; [reflexivity|].
  destruct (is_digit c); [apply IH | reflexivity].
Qed.

Lemma to_dec_fuel_app : forall f v acc, to_dec_fuel f v acc = to_dec_fuel f v [] ++ acc.
Proof.
  induction f as [|f IH]; intros v acc; cbn [to_dec_fuel]; [reflexivity|].
  destruct (v <? 10); [reflexivity|].
  rewrite IH. rewrite (IH (v / 10) [dec_digit (v mod 10)]). rewrite <- app_assoc. reflexivity.
Qed.

Lemma digits_val_dec_digit : forall a d r, d < 10 -> digits_val a (dec_digit d :: r) = digits_val (a * 10 + d) r.
Proof.
  intros a d r H. cbn [digits_val]. unfold is_digit, dec_digit.
  rewrite !(proj2 (N.leb_le _ _)) by lia.
  cbn [andb]. f_equal. lia.
Qed.

(* stated with the accumulator of [to_dec_fuel]: the digits written so far are read after those of [v], so reading
   starts them at [v] *)
Lemma digits_to_dec : forall f v acc, v < 10 ^ N.of_nat f -> digits_val 0 (to_dec_fuel f v acc) = digits_val v acc.
Proof.
  induction f as [|f IH]; intros v acc Hv; [cbn in *; f_equal; lia|].
  rewrite Nat2N.inj_succ, N.pow_succ_r' in Hv.
  cbn [to_dec_fuel]. destruct (N.ltb_spec v 10) as [Hlt|Hge].
  - now rewrite digits_val_dec_digit.
  - rewrite IH by (apply N.div_lt_upper_bound; lia).
    rewrite digits_val_dec_digit by (apply N.mod_lt; lia). f_equal.
    pose proof (N.div_mod v 10 ltac:(lia)). lia.
Qed.

Lemma to_dec_fuel_nonempty : forall f v acc, f <> O \/ acc <> [] -> to_dec_fuel f v acc <> [].
Proof.
  induction f as [|f IH]; intros v acc H; cbn [to_dec_fuel]; [now destruct H|].
  destruct (v <? 10); [discriminate|apply IH; right; discriminate].
Qed.

Lemma to_dec_nonempty : forall v, to_dec v <> [].
Proof. intro v. apply to_dec_fuel_nonempty. left. discriminate. Qed.

Lemma match_nonempty : forall (A : Type) (s : bytes) (x : A) (f : bytes -> A),
  s <> [] -> match s with [] => x | c :: r => f (c :: r) end = f s.
Proof. intros A s x f H. destruct s; [contradiction|reflexivity]. Qed.

Lemma nonempty_case : forall (A : Type) (s : bytes) (x y : A),
  s <> [] -> match s with [] => x | _ :: _ => y end = y.
Proof. intros A s x y. exact (match_nonempty A s x (fun _ => y)). Qed.

Theorem parse_uint64_to_dec : forall v, v < 18446744073709551616 -> parse_uint64 (to_dec v) = Some v.
Proof.
  intros v Hv. unfold parse_uint64.
  rewrite nonempty_case by apply to_dec_nonempty. unfold to_dec. rewrite digits_to_dec by lia. cbn [digits_val].
  now rewrite (proj2 (N.ltb_lt _ _) Hv).
Qed.

Lemma digits_val_all_digits : forall s a v, digits_val a s = Some v -> forallb is_digit s = true.
Proof.
  induction s as [|c s IH]; intros a v H; [reflexivity|].
  cbn [digits_val] in H. cbn [forallb]. destruct (is_digit c); [|discriminate].
  eapply IH; exact H.
Qed.

Lemma atoi_to_dec_small : forall v, v < 16 -> atoi (to_dec v) = Some (Z.of_N v).
Proof.
  intros v Hv.
  pose proof (sweep (fun v => match atoi (to_dec v) with Some z => Z.eqb z (Z.of_N v) | None => false end) 16
                    ltac:(vm_compute; reflexivity) v Hv) as H.
  cbv beta in H. destruct (atoi (to_dec v)) as [z|]; [|discriminate].
  apply Z.eqb_eq in H. subst z. reflexivity.
Qed.

Lemma ser_of_small : forall v, v < 16 -> ser_of (Z.of_N v) = v.
Proof. intros v H. unfold ser_of. rewrite Z.mod_small by lia. apply N2Z.id. Qed.
Lemma comp_of_small : forall v, v < 8 -> comp_of (Z.of_N v) = v.
Proof. intros v H. unfold comp_of. rewrite Z.mod_small by lia. apply N2Z.id. Qed.

Definition byte_hex_ok (c : N) : bool :=
  match hexval (hexdigit (c / 16)), hexval (hexdigit (c mod 16)) with
  | Some a, Some b => 16 * a + b =? c
  | _, _ => false
  end.

Lemma unescape_escape_byte : forall c rest u, c < 256 ->
  unescape rest = Some u -> unescape (escape_byte c ++ rest) = Some (c :: u).
Proof.
  intros c rest u Hc Hu. unfold escape_byte.
  destruct (unreserved c) eqn:U.
  - pose proof (sweep (fun c => negb (unreserved c) || (negb (c =? 37) && negb (c =? 43))) 256
                      ltac:(vm_compute; reflexivity) c Hc) as H.
    cbv beta in H. rewrite U in H. apply andb_true_iff in H. destruct H as [H1 H2].
    apply negb_true_iff in H1. apply negb_true_iff in H2.
    cbn [app unescape]. rewrite H1, Hu, H2. reflexivity.
  - destruct (N.eqb_spec c 32) as [->|Hne].
    + cbn [app unescape]. rewrite Hu. reflexivity.
    + pose proof (sweep byte_hex_ok 256 ltac:(vm_compute; reflexivity) c Hc) as H.
      unfold byte_hex_ok in H.
      destruct (hexval (hexdigit (c / 16))) as [a|] eqn:Ha; [|discriminate].
      destruct (hexval (hexdigit (c mod 16))) as [b|] eqn:Hb; [|discriminate].
      apply N.eqb_eq in H.
      cbn [app unescape]. rewrite Ha, Hb, Hu, H. reflexivity.
Qed.

Theorem unescape_escape : forall s, wf_bytes s -> unescape (escape s) = Some s.
Proof.
  induction s as [|c s IH]; intros Hwf; [reflexivity|].
  inversion Hwf as [|? ? Hc Hs].
  apply unescape_escape_byte; [exact Hc | apply IH; exact Hs].
Qed.

Lemma has_byte_app : forall x a b, has_byte x (a ++ b) = has_byte x a || has_byte x b.
Proof. intros. apply existsb_app. Qed.

Lemma escape_no_sep : forall s x, wf_bytes s -> (x = 38 \/ x = 61 \/ x = 59) -> has_byte x (escape s) = false.
Proof.
  induction s as [|c s IH]; intros x Hwf Hx; [reflexivity|].
  inversion Hwf as [|? ? Hc Hs]; subst. unfold escape. cbn [flat_map]. fold (escape s).
  rewrite has_byte_app, (IH x Hs Hx), orb_false_r.
  pose proof (sweep (fun c => negb (existsb (N.eqb 38) (escape_byte c)) && negb (existsb (N.eqb 61) (escape_byte c))
                              && negb (existsb (N.eqb 59) (escape_byte c))) 256 ltac:(vm_compute; reflexivity) c Hc) as H.
  apply andb_true_iff in H. destruct H as [H H3]. apply andb_true_iff in H. destruct H as [H1 H2].
  apply negb_true_iff in H1. apply negb_true_iff in H2. apply negb_true_iff in H3.
  destruct Hx as [->|[->| ->]]; assumption.
Qed.

Lemma has_byte_cons : forall x c a, has_byte x (c :: a) = (c =? x) || has_byte x a.
Proof. intros. now rewrite N.eqb_sym. Qed.

Lemma split_nonempty : forall sep s, split sep s <> [].
Proof.
  intros sep s. destruct s as [|c r]; cbn [split]; [discriminate|].
  destruct (c =? sep); [discriminate|]. destruct (split sep r); discriminate.
Qed.

Lemma split_nosep : forall sep a, has_byte sep a = false -> split sep a = [a].
Proof.
  induction a as [|c a IH]; intros H; [reflexivity|].
  rewrite has_byte_cons in H. apply orb_false_iff in H as [H1 H2].
  cbn [split]. rewrite H1, (IH H2). reflexivity.
Qed.

Lemma split_app_sep : forall sep a b, has_byte sep a = false -> split sep (a ++ sep :: b) = a :: split sep b.
Proof.
  induction a as [|c a IH]; intros b H.
  - cbn [app split]. rewrite N.eqb_refl. reflexivity.
  - rewrite has_byte_cons in H. apply orb_false_iff in H as [H1 H2].
    cbn [app split]. rewrite H1, (IH b H2). reflexivity.
Qed.

Lemma cut_app_sep : forall sep a b, has_byte sep a = false -> cut sep (a ++ sep :: b) = (a, b).
Proof.
  induction a as [|c a IH]; intros b H.
  - cbn [app cut]. rewrite N.eqb_refl. reflexivity.
  - rewrite has_byte_cons in H. apply orb_false_iff in H as [H1 H2].
    cbn [app cut]. rewrite H1, (IH b H2). reflexivity.
Qed.

Definition wf_kv (kv : bytes * bytes) : Prop := wf_bytes (fst kv) /\ wf_bytes (snd kv).
Definition piece (kv : bytes * bytes) : bytes := escape (fst kv) ++ [61] ++ escape (snd kv).

Lemma piece_no_sep : forall kv x, wf_kv kv -> (x = 38 \/ x = 59) -> has_byte x (piece kv) = false.
Proof.
  intros [k v] x [Hk Hv] Hx. unfold piece. cbn [fst snd].
  rewrite !has_byte_app, (escape_no_sep k x Hk), (escape_no_sep v x Hv) by tauto.
  destruct Hx as [->| ->]; reflexivity.
Qed.

Lemma parse_pieces_piece : forall kv rest, wf_kv kv ->
  parse_pieces (piece kv :: rest) = let '(kvs, err) := parse_pieces rest in (kv :: kvs, err).
Proof.
  intros [k v] rest Hwf. pose proof Hwf as [Hk Hv]. cbn [parse_pieces]. destruct (parse_pieces rest) as [kvs err].
  rewrite (piece_no_sep (k, v) 59 Hwf) by tauto.
  rewrite nonempty_case by (intros [_ [=]]%app_eq_nil).
  unfold piece. cbn [fst snd app]. rewrite cut_app_sep by (apply escape_no_sep; tauto).
  rewrite (unescape_escape k Hk), (unescape_escape v Hv). reflexivity.
Qed.

Lemma encode_query_cons : forall kv kvs,
  encode_query (kv :: kvs) = piece kv ++ match kvs with [] => [] | _ => 38 :: encode_query kvs end.
Proof.
  intros [k v] [|kv2 kvs]; unfold piece; cbn [encode_query fst snd]; [now rewrite app_nil_r|now rewrite <- !app_assoc].
Qed.

Theorem parse_query_encode : forall kvs, Forall wf_kv kvs -> parse_query (encode_query kvs) = (kvs, false).
Proof.
  unfold parse_query.
  induction kvs as [|kv kvs IH]; intros Hwf; [reflexivity|].
  inversion Hwf as [|? ? Hkv Hrest]. rewrite encode_query_cons.
  assert (Hs : has_byte 38 (piece kv) = false) by (apply piece_no_sep; [exact Hkv|tauto]).
  destruct kvs as [|kv2 kvs2].
  - rewrite app_nil_r, split_nosep, parse_pieces_piece by assumption. reflexivity.
  - rewrite split_app_sep, parse_pieces_piece, (IH Hrest) by assumption. reflexivity.
Qed.

Lemma beq_eq : forall a b, beq a b = true <-> a = b.
Proof.
  induction a as [|x a IH]; destruct b as [|y b]; cbn [beq]; split; intro H; try reflexivity; try discriminate.
  - apply andb_true_iff in H. destruct H as [H1 H2]. apply N.eqb_eq in H1. apply IH in H2. subst. reflexivity.
  - injection H as -> ->. rewrite N.eqb_refl. apply IH. reflexivity.
Qed.

Lemma existsb_eq_in : forall (A : Type) (eqb : A -> A -> bool), (forall a b, eqb a b = true <-> a = b) ->
  forall k l, existsb (eqb k) l = true <-> In k l.
Proof.
  intros A eqb Heq k l. rewrite existsb_exists. split.
  - intros [x [Hin Hx]]. apply Heq in Hx. subst. exact Hin.
  - intro H. exists k. split; [exact H | apply Heq; reflexivity].
Qed.

Lemma first_vals_nodup : forall kvs seen,
  NoDup (map fst kvs) -> (forall k, In k (map fst kvs) -> ~ In k seen) -> first_vals seen kvs = kvs.
Proof.
  induction kvs as [|[k v] kvs IH]; intros seen Hnd Hseen; [reflexivity|].
  cbn [first_vals]. inversion Hnd as [|? ? Hnotin Hnd'].
  destruct (existsb (beq k) seen) eqn:E.
  - apply (existsb_eq_in _ _ beq_eq) in E. exfalso. apply (Hseen k); [left; reflexivity | exact E].
  - f_equal. apply IH; [exact Hnd'|].
    intros k' Hin [->|Hin']; [contradiction | apply (Hseen k'); [right; exact Hin | exact Hin']].
Qed.

Definition wf_greq (q : greq) : Prop :=
  g_seq q < 18446744073709551616 /\ g_ser q < 16 /\ g_comp q < 8 /\
  NoDup (map fst (g_meta q)) /\ Forall wf_kv (g_meta q).

Lemma hdr_uint_to_dec : forall v, v < 18446744073709551616 -> hdr_uint (to_dec v) = Some v.
Proof.
  intros v H. unfold hdr_uint. rewrite nonempty_case by apply to_dec_nonempty. apply parse_uint64_to_dec, H.
Qed.
Lemma hdr_int_to_dec : forall v, v < 16 -> hdr_int (to_dec v) = Some (Z.of_N v).
Proof.
  intros v H. unfold hdr_int. rewrite nonempty_case by apply to_dec_nonempty. apply atoi_to_dec_small, H.
Qed.
Lemma hdr_meta_encode : forall m, NoDup (map fst m) -> Forall wf_kv m -> hdr_meta (encode_query m) = Some m.
Proof.
  intros m Hnd Hwf. unfold hdr_meta. pose proof (parse_query_encode m Hwf) as Hp.
  destruct (encode_query m) as [|c r] eqn:E.
  - injection Hp as <-. reflexivity.
  - rewrite Hp. rewrite first_vals_nodup; [reflexivity | exact Hnd | intros k _ []].
Qed.

Theorem http_round_trip : forall q body, wf_greq q ->
  http_to_req (to_http q) body =
  Some (mkGReq (g_seq q) (g_hb q) (g_oneway q) (g_ser q) (g_comp q) (g_meta q) (g_path q) (g_meth q) body).
Proof.
  intros q body (Hseq & Hser & Hcomp & Hnd & Hwf).
  unfold http_to_req, to_http. cbn [h_id h_hb h_oneway h_ser h_comp h_meta h_auth h_path h_meth].
  rewrite hdr_uint_to_dec by exact Hseq.
  rewrite hdr_int_to_dec by exact Hser. rewrite ser_of_small by exact Hser.
  assert (Hc : hdr_int (if g_comp q =? 0 then [] else to_dec (g_comp q)) = Some (Z.of_N (g_comp q))).
  { destruct (N.eqb_spec (g_comp q) 0) as [->|Hne]; [reflexivity|]. apply hdr_int_to_dec. lia. }
  rewrite Hc. rewrite comp_of_small by exact Hcomp.
  rewrite hdr_meta_encode by assumption. destruct (g_hb q), (g_oneway q); reflexivity.
Qed.

Lemma nonempty_true : forall s, nonempty s = true <-> s <> [].
Proof. destruct s; cbn; split; congruence. Qed.

(* handleGatewayRequest: a request is forwarded exactly when it names a path (in the header or the URL), a method
   and a serialize type, and the headers convert *)
Lemma gateway_front_spec : forall h url body q,
  gateway_front h url body = Some q <->
  let path := match h_path h with [] => trim_slash url | p => p end in
  path <> [] /\ h_meth h <> [] /\ h_ser h <> [] /\
  http_to_req (mkGHdr (h_id h) (h_hb h) (h_oneway h) (h_ser h) (h_comp h) (h_meta h) (h_auth h) path (h_meth h)) body = Some q.
Proof.
  intros h url body q. unfold gateway_front. rewrite <- !nonempty_true.
  destruct (http_to_req _ body) as [q'|]; [|split; [discriminate|now intros (_ & _ & _ & ?)]].
  destruct (nonempty _ && nonempty _ && nonempty _) eqn:E.
  - apply andb_true_iff in E as [E E3]. apply andb_true_iff in E as [E1 E2].
    split; [intros ->|intros (_ & _ & _ & ->)]; auto.
  - split; [discriminate|]. intros (E1 & E2 & E3 & _). rewrite E1, E2, E3 in E. discriminate.
Qed.

Lemma http_to_req_some : forall h body q, http_to_req h body = Some q ->
  exists seq st ct meta,
    hdr_uint (h_id h) = Some seq /\ hdr_int (h_ser h) = Some st /\ hdr_int (h_comp h) = Some ct /\
    hdr_meta (h_meta h) = Some meta /\
    q = mkGReq seq (nonempty (h_hb h)) (nonempty (h_oneway h)) (ser_of st) (comp_of ct)
               (if nonempty (h_auth h) then mset AUTH_KEY (h_auth h) meta else meta) (h_path h) (h_meth h) body.
Proof.
  intros h body q. unfold http_to_req.
  destruct (hdr_uint (h_id h)) as [seq|]; [|discriminate].
  destruct (hdr_int (h_ser h)) as [st|]; [|discriminate].
  destruct (hdr_int (h_comp h)) as [ct|]; [|discriminate].
  destruct (hdr_meta (h_meta h)) as [meta|]; [|discriminate].
  intros [= <-]. now exists seq, st, ct, meta.
Qed.

(* each of these makes the gateway reject the header set *)
Lemma gateway_front_none : forall h url body,
  match h_path h with [] => trim_slash url | p => p end = [] \/ h_meth h = [] \/ h_ser h = [] \/
  hdr_uint (h_id h) = None \/ hdr_int (h_ser h) = None \/ hdr_int (h_comp h) = None \/ hdr_meta (h_meta h) = None ->
  gateway_front h url body = None.
Proof.
  intros h url body H. destruct (gateway_front h url body) as [q|] eqn:E; [|reflexivity].
  apply gateway_front_spec in E as (Hp & Hm & Hs & E).
  apply http_to_req_some in E as (seq & st & ct & meta & E1 & E2 & E3 & E4 & _). cbn [h_id h_ser h_comp h_meta] in *.
  destruct H as [H|[H|[H|[H|[H|[H|H]]]]]]; congruence.
Qed.

Lemma last_dot_none : forall s, last_dot s = None <-> has_byte 46 s = false.
Proof.
  induction s as [|c s IH]; [split; reflexivity|].
  cbn [last_dot]. rewrite has_byte_cons.
  destruct (last_dot s) as [i|].
  - split; [discriminate|]. intro H. apply orb_false_iff in H as [_ H].
    apply IH in H. discriminate.
  - destruct IH as [IH _]. rewrite (IH eq_refl), orb_false_r.
    destruct (c =? 46); split; intro; try reflexivity; discriminate.
Qed.

Lemma last_dot_app : forall p m, has_byte 46 m = false -> last_dot (p ++ 46 :: m) = Some (length p).
Proof.
  induction p as [|c p IH]; intros m H.
  - cbn [app last_dot length]. apply last_dot_none in H. rewrite H. reflexivity.
  - cbn [app last_dot length]. rewrite (IH m H). reflexivity.
Qed.

Lemma firstn_skipn_at : forall (p : bytes) x m,
  firstn (length p) (p ++ x :: m) = p /\ skipn (S (length p)) (p ++ x :: m) = m.
Proof.
  induction p as [|c p IH]; intros x m; [now split|]. destruct (IH x m) as [E1 E2].
  split; [cbn [length app firstn]; f_equal; exact E1 | exact E2].
Qed.
