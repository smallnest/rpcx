From Coq Require Import List NArith Bool.
From RPCX Require Import Server.Dispatch Server.Ingress.
Import ListNotations.

Definition is_result (o : ioutcome) : bool := match o with IResult _ => true | _ => false end.

(* what every "rejected" theorem concludes *)
Definition kept_out (r : ires) : Prop := o_invoked r = [] /\ is_result (o_out r) = false.

Section IP.
Variable find : nat -> nat -> target.
Variable codec_ok : N -> bool.
Variable decodable : N -> nat -> bool.
Variable handler : nat -> nat -> nat -> hres.
Variable hmeta : nat -> nat -> nat -> list (nat * nat).

Notation serve := (serve find codec_ok decodable handler hmeta).
Notation http_like := (http_like find codec_ok decodable handler hmeta).
Notation handle_with_precall := (handle_with_precall find codec_ok decodable handler hmeta).
Notation native := (native find codec_ok decodable handler hmeta).

Lemma of_resp_error r : r_status r = SError -> is_result (of_resp r) = false.
Proof. unfold of_resp. now intros ->. Qed.

Lemma precall_veto_no_invocation c q :
  ic_precall c = true -> exists r, handle_with_precall c q = (r, []) /\ r_status r = SError.
Proof.
  intros Hp. unfold handle_with_precall. rewrite Hp.
  destruct (find (q_path q) (q_meth q)); [eexists; split; reflexivity..| |];
    destruct (negb (codec_ok (q_ser q))), (negb (decodable (q_ser q) (q_args q))); eexists; split; reflexivity.
Qed.

Lemma jsonrpc_kept_out c rq : kept_out (http_like c rq) -> kept_out (serve JsonRpc c rq).
Proof. intros [H1 H2]. cbn [Ingress.serve]. destruct (q_oneway (i_q rq)); split; auto. Qed.

Lemma http_like_kept_out c rq : rejected Gateway c rq = true -> kept_out (http_like c rq).
Proof.
  unfold rejected, Ingress.http_like. intros H.
  destruct (ic_accept_veto c); [split; reflexivity|].
  destruct (i_malformed rq); [split; reflexivity|].
  destruct (ic_postread c); [split; reflexivity|].
  destruct (negb (auth_ok c (i_token rq))); [split; reflexivity|].
  cbn in H. rewrite andb_true_r in H.
  destruct (precall_veto_no_invocation c (i_q rq) H) as (r & -> & Hs). split; [reflexivity|]. cbn.
  rewrite Hs. destruct (q_oneway (i_q rq)); apply of_resp_error, Hs.
Qed.

(* second premise: [native] sends a TRouter target to [process], which has no PreCall stage, so a pre-call veto does not
   keep a router handler out *)
Lemma native_kept_out c rq :
  rejected Native c rq = true ->
  (find (q_path (i_q rq)) (q_meth (i_q rq)) <> TRouter \/ ic_precall c = false) ->
  kept_out (native c rq).
Proof.
  unfold rejected, Ingress.native. intros H Hr.
  destruct (ic_accept_veto c); [split; reflexivity|].
  destruct (ic_postread c); [split; reflexivity|].
  destruct (q_hb (i_q rq)); [split; reflexivity|].
  destruct (negb (auth_ok c (i_token rq))); [destruct (q_oneway (i_q rq)); split; reflexivity|].
  cbn in H. rewrite andb_true_r in H.
  (* only the PreCall stage is left to reject: then the target is not a router handler, and the other four targets
     all go through handle_with_precall *)
  assert (K : kept_out (let '(r, inv) := handle_with_precall c (i_q rq) in
                        mkIRes (if q_oneway (i_q rq) then INothing else of_resp r) inv false)).
  { destruct (precall_veto_no_invocation c (i_q rq) H) as (r & -> & Hs). split; [reflexivity|].
    destruct (q_oneway (i_q rq)); [reflexivity|apply of_resp_error, Hs]. }
  destruct (find (q_path (i_q rq)) (q_meth (i_q rq))); [destruct Hr; congruence|exact K..].
Qed.

Lemma native_dropped c rq : ic_accept_veto c || ic_postread c = true ->
  native c rq = mkIRes INothing [] true.
Proof. unfold Ingress.native. destruct (ic_accept_veto c); [reflexivity|]. cbn [orb]. now intros ->. Qed.

Lemma native_heartbeat c rq : ic_accept_veto c = false -> ic_postread c = false -> q_hb (i_q rq) = true ->
  native c rq = mkIRes IEcho [] false.
Proof. intros Ha Hp Hh. unfold Ingress.native. now rewrite Ha, Hp, Hh. Qed.

Lemma native_auth_failure c rq :
  ic_accept_veto c = false -> ic_postread c = false -> q_hb (i_q rq) = false -> auth_ok c (i_token rq) = false ->
  native c rq
  = mkIRes (if q_oneway (i_q rq) then INothing else IError None) [] true.
Proof. intros Ha Hp Hh Hau. unfold Ingress.native. now rewrite Ha, Hp, Hh, Hau. Qed.

Lemma accept_veto_kept_out ing c rq : ic_accept_veto c = true -> kept_out (serve ing c rq).
Proof.
  intros H. destruct ing; cbn [Ingress.serve]; unfold Ingress.native, Ingress.http_like; rewrite H; [split; reflexivity..|].
  destruct (q_oneway (i_q rq)); split; reflexivity.
Qed.

(* C19: a two-way request to a registered service or function that no stage rejects is served by the HTTP gateway
   and by the JSON-RPC endpoint exactly as natively: all three run the same handleRequest *)
Theorem http_serve_is_native ing c rq :
  rejected ing c rq = false -> q_hb (i_q rq) = false -> q_oneway (i_q rq) = false ->
  find (q_path (i_q rq)) (q_meth (i_q rq)) <> TRouter ->
  serve ing c rq = serve Native c rq.
Proof.
  intros Hrej Hhb How Hr.
  assert (E : ing = Native \/ serve ing c rq = http_like c rq /\ rejected Gateway c rq = false).
  { destruct ing; [now left|now right|right]. cbn [Ingress.serve]. now rewrite How. }
  destruct E as [-> | [-> H]]; [reflexivity|]. unfold rejected in H. rewrite !orb_false_iff, !andb_true_r in H.
  destruct H as ((((Ha & Hp) & Hm) & Hau) & _).
  cbn [Ingress.serve]. unfold Ingress.http_like, Ingress.native. rewrite Ha, Hm, Hp, Hau, Hhb, How.
  destruct (find (q_path (i_q rq)) (q_meth (i_q rq))); [congruence|reflexivity..].
Qed.
End IP.
