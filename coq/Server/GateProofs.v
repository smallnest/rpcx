From Coq Require Import List NArith.
From RPCX Require Import Server.Dispatch Server.DispatchProofs Server.Gate.
Import ListNotations.

Section GP.
Variable find : nat -> nat -> target.
Variable codec_ok : N -> bool.
Variable decodable : N -> nat -> bool.
Variable handler : nat -> nat -> nat -> hres.
Variable hmeta : nat -> nat -> nat -> list (nat * nat).
Variable limited : nat -> nat -> nat -> option nat.
Variable denied : nat -> nat -> nat -> option nat.

Notation process := (process find codec_ok decodable handler hmeta).
Notation refusal := (refusal limited denied).
Notation serve := (serve find codec_ok decodable handler hmeta limited denied).
Notation gstep := (gstep find codec_ok decodable handler hmeta limited denied).
Notation grun := (grun find codec_ok decodable handler hmeta limited denied).

Lemma serve_refused q t cl : refusal q = Some (t, cl) -> serve q = (refusal_frames q t, []).
Proof. intros Hr. unfold Gate.serve. now rewrite Hr. Qed.

Lemma admitted_is_processed q : refusal q = None -> serve q = process q.
Proof. intros Hr. unfold Gate.serve. now rewrite Hr. Qed.

(* DispatchProofs.answer carried through the gate *)
Definition served_answer (q : sreq) : sresp :=
  match refusal q with
  | Some (t, _) => err_resp q (XExact t)
  | None => answer find codec_ok decodable handler hmeta q
  end.

Lemma serve_frames q : q_hb q = false -> fst (serve q) = if q_oneway q then [] else [served_answer q].
Proof.
  intros Hh. unfold Gate.serve, served_answer, refusal_frames.
  destruct (refusal q) as [[t cl]|]; [reflexivity|now rewrite process_answer].
Qed.

Lemma served_answer_stamped q : stamped q (served_answer q).
Proof. unfold served_answer. destruct (refusal q) as [[t cl]|]; repeat split. Qed.

Lemma refused_runs_no_handler q t cl : refusal q = Some (t, cl) -> snd (serve q) = [].
Proof. intros Hr. now rewrite (serve_refused q t cl Hr). Qed.

Lemma heartbeat_not_authenticated q :
  q_hb q = true -> limited (q_path q) (q_meth q) (q_args q) = None -> serve q = process q.
Proof. intros Hh Hl. apply admitted_is_processed. unfold Gate.refusal. now rewrite Hl, Hh. Qed.

Lemma only_auth_closes q t : refusal q = Some (t, true) ->
  q_hb q = false /\ denied (q_path q) (q_meth q) (q_args q) = Some t
  /\ limited (q_path q) (q_meth q) (q_args q) = None.
Proof.
  unfold Gate.refusal. destruct (limited _ _ _); [discriminate|].
  destruct (q_hb q); [discriminate|]. destruct (denied _ _ _); [|discriminate].
  intros H. injection H as <-. auto.
Qed.

Lemma in_on_conn {A} (c c' : nat) (f : A) fs : In (c', f) (map (fun f => (c, f)) fs) -> c' = c /\ In f fs.
Proof. intros (f' & [= <- <-] & H)%in_map_iff. now split. Qed.

(* The invariant speaks of a set R of requests (connection, id, request) rather than of the history:
   it is kept by every step whose event, if it is a read, is in R; for a run, R is "read somewhere in the run". *)
Section Inv.
Variable R : nat -> nat -> sreq -> Prop.

Record GInv (s : gstate) : Prop := {
  G_inflight : forall rid c q, In (rid, c, q) (inflight (gbase s)) -> R c rid q /\ refusal q = None;
  G_written : forall c f, In (c, f) (written (gbase s)) -> exists rid q, R c rid q /\ In f (fst (serve q));
  G_invoked : forall i, In i (invoked (gbase s)) ->
              exists c rid q, R c rid q /\ refusal q = None /\ In i (snd (process q)) }.

Definition reads_in (e : cevent) : Prop := match e with CRead c rid q => R c rid q | CDone _ => True end.

Lemma ginv_step s e : reads_in e -> GInv s -> GInv (gstep s e).
Proof.
  intros He Hs. pose proof Hs as [H1 H2 H3]. destruct e as [c rid q|rid]; cbn [Gate.gstep].
  - destruct (existsb (Nat.eqb c) (gclosed s)); [exact Hs|].
    destruct (refusal q) as [[t cl]|] eqn:Hr; cbn [gbase written cstep].
    + (* refused: the reader writes the refusal's frames at once *)
      split; [exact H1| |exact H3].
      intros c' f [Hi|Hi]%in_app_iff; [auto|].
      apply in_on_conn in Hi as [-> Hi]. exists rid, q. now rewrite (serve_refused q t cl Hr).
    + split; [|assumption..].
      intros r c' q' [Hi|[[= <- <- <-]|[]]]%in_app_iff; [now apply H1|now split].
  - cbn [cstep]. destruct (take_rid rid (inflight (gbase s))) as [[[c q]|] rest] eqn:E; [|split; assumption].
    destruct (take_rid_some _ _ _ _ _ E) as [Hin Hrest]. destruct (H1 _ _ _ Hin) as (Hread & Hadm).
    destruct (process q) as [frames inv] eqn:Ep. split.
    + intros r c' q' Hi. now apply H1, Hrest.
    + intros c' f [Hi|Hi]%in_app_iff; [auto|].
      apply in_on_conn in Hi as [-> Hi]. exists rid, q. now rewrite (admitted_is_processed q Hadm), Ep.
    + intros i [Hi|Hi]%in_app_iff; [auto|]. exists c, rid, q. now rewrite Ep.
Qed.

Lemma ginv_run es : Forall reads_in es -> forall s, GInv s -> GInv (grun s es).
Proof. induction 1 as [|e es He _ IH]; intros s Hi; [exact Hi|]. apply IH, ginv_step; assumption. Qed.
End Inv.

Lemma ginv_of_run es : GInv (fun c rid q => In (CRead c rid q) es) (grun ginit es).
Proof.
  apply ginv_run; [|split; intros; contradiction].
  apply Forall_forall. intros [c rid q|rid] Hin; [exact Hin|exact I].
Qed.

End GP.
Arguments G_inflight {_ _ _ _ _ _ _ _ _}.
Arguments G_written {_ _ _ _ _ _ _ _ _}.
Arguments G_invoked {_ _ _ _ _ _ _ _ _}.

Lemma refusal_none q : refusal (fun _ _ _ => None) (fun _ _ _ => None) q = None.
Proof. unfold refusal. now destruct (q_hb q). Qed.

(* Stated from any state, for the induction; a state with closed connections drops the reads on them, which [crun]
   does not: hence the second disjunct. *)
Lemma no_gate_is_crun find codec_ok decodable handler hmeta es : forall s,
  gbase (grun find codec_ok decodable handler hmeta (fun _ _ _ => None) (fun _ _ _ => None) s es)
  = crun find codec_ok decodable handler hmeta (gbase s) es \/ gclosed s <> [].
Proof.
  induction es as [|e r IH]; intros s; cbn; [now left|].
  destruct (gclosed s) eqn:Hc; [|right; discriminate].
  assert (Hstep : gstep find codec_ok decodable handler hmeta (fun _ _ _ => None) (fun _ _ _ => None) s e
                  = mkGS (cstep find codec_ok decodable handler hmeta (gbase s) e) []).
  { destruct e as [c rid q|rid]; cbn [gstep]; rewrite Hc; [|reflexivity]. now rewrite refusal_none. }
  rewrite Hstep. destruct (IH (mkGS (cstep find codec_ok decodable handler hmeta (gbase s) e) [])) as [H|H]; [left; exact H|].
  contradiction.
Qed.

Lemma crun_is_grun find codec_ok decodable handler hmeta es :
  crun find codec_ok decodable handler hmeta cinit es
  = gbase (grun find codec_ok decodable handler hmeta (fun _ _ _ => None) (fun _ _ _ => None) ginit es).
Proof.
  destruct (no_gate_is_crun find codec_ok decodable handler hmeta es ginit) as [E|[]]; [symmetry; exact E|reflexivity].
Qed.
