(* Cyclic cursors over a list: the shape shared by round-robin selection and by the
   weighted selector's ring (container/ring with a cursor). *)
From Coq Require Import List Arith Lia Permutation.
Import ListNotations.

Section Cyclic.
Context {A : Type}.

Definition cyc_nth (d : A) (l : list A) (c : nat) : A := nth (c mod length l) l d.

(* the next k selections of a cursor that stands at c *)
Definition window (d : A) (l : list A) (c k : nat) : list A :=
  map (fun t => cyc_nth d l (c + t)) (seq 0 k).

Lemma cyc_nth_In d (l : list A) c : l <> [] -> In (cyc_nth d l c) l.
Proof.
  intros Hl. apply nth_In, Nat.mod_upper_bound. destruct l; [congruence|discriminate].
Qed.

Lemma window_cons d (l : list A) c k :
  window d l c (S k) = cyc_nth d l c :: window d l (S c) k.
Proof.
  unfold window. cbn [seq map]. rewrite Nat.add_0_r, <- seq_shift, map_map.
  f_equal. apply map_ext. intros t. f_equal. lia.
Qed.

Lemma window_snoc d (l : list A) c k :
  window d l c (S k) = window d l c k ++ [cyc_nth d l (c + k)].
Proof. unfold window. rewrite seq_S, map_app. reflexivity. Qed.

Lemma window_congr d (l : list A) k a b :
  length l <> 0 -> a mod length l = b mod length l -> window d l a k = window d l b k.
Proof.
  intros Hn Hab. apply map_ext. intros t. unfold cyc_nth.
  rewrite <- (Nat.add_mod_idemp_l a), Hab, Nat.add_mod_idemp_l by exact Hn. reflexivity.
Qed.

Lemma map_nth_seq d (l : list A) : map (fun i => nth i l d) (seq 0 (length l)) = l.
Proof.
  induction l as [|x l IH]; [reflexivity|]. cbn [length seq map nth].
  rewrite <- seq_shift, map_map. f_equal. exact IH.
Qed.

(* from cursor 0 the window is the list; moving the cursor by one moves its head to its end *)
Lemma window_perm d (l : list A) c :
  length l <> 0 -> Permutation (window d l c (length l)) l.
Proof.
  intros Hn. induction c as [|c IH].
  - rewrite <- (map_nth_seq d l) at 3. unfold window. erewrite map_ext_in; [reflexivity|].
    intros t Ht. apply in_seq in Ht. unfold cyc_nth. rewrite Nat.mod_small by lia. reflexivity.
  - refine (Permutation_trans _ IH). apply Permutation_cons_inv with (a := cyc_nth d l c).
    rewrite <- window_cons, window_snoc, <- Permutation_cons_append.
    unfold cyc_nth. replace (c + length l) with (c + 1 * length l) by lia. rewrite Nat.mod_add by exact Hn.
    reflexivity.
Qed.

End Cyclic.

Lemma cyc_nth_map_seq {B} (f : nat -> B) d L c : L <> 0 -> cyc_nth d (map f (seq 0 L)) c = f (c mod L).
Proof.
  intros HL. unfold cyc_nth. rewrite map_length, seq_length.
  pose proof (Nat.mod_upper_bound c L HL) as Hlt.
  rewrite (nth_indep _ d (f 0)) by (rewrite map_length, seq_length; exact Hlt).
  rewrite map_nth, seq_nth by exact Hlt. reflexivity.
Qed.

(* Any selector that answers with the element under its cursor and leaves the cursor congruent to cursor+1
   modulo the length (round-robin stores (i mod n)+1): k selections are the window. *)
Section Cursor.
Context {St A : Type} (sel : St -> option A * St).

Fixpoint selects (k : nat) (s : St) : list (option A) * St :=
  match k with
  | 0 => ([], s)
  | S k' => let (r, s') := sel s in
            let (rs, s'') := selects k' s' in (r :: rs, s'')
  end.

Context (lst : St -> list A) (cur : St -> nat) (ok : St -> Prop) (d : A).

(* ok: the states in which there is something to select from; a selection must stay inside them *)
Definition advances (s : St) : Prop :=
  length (lst s) <> 0 /\ fst (sel s) = Some (cyc_nth d (lst s) (cur s)) /\
  ok (snd (sel s)) /\ lst (snd (sel s)) = lst s /\
  cur (snd (sel s)) mod length (lst s) = S (cur s) mod length (lst s).

Hypothesis sel_spec : forall s, ok s -> advances s.

Lemma selects_window k : forall s, ok s ->
  fst (selects k s) = map Some (window d (lst s) (cur s) k).
Proof.
  induction k as [|k IH]; intros s Hs; [reflexivity|]. cbn [selects].
  destruct (sel_spec s Hs) as (Hn & Hr & Hok & Hl & Hc). specialize (IH _ Hok).
  destruct (sel s) as [r s']. cbn [fst snd] in *. destruct (selects k s') as [rs s'']. cbn [fst] in *.
  rewrite window_cons, Hr, IH, Hl. cbn [map]. do 2 f_equal. apply window_congr; assumption.
Qed.

Lemma selects_perm s : ok s ->
  Permutation (fst (selects (length (lst s)) s)) (map Some (lst s)).
Proof.
  intros Hs. rewrite selects_window by exact Hs. apply Permutation_map, window_perm, (sel_spec s Hs).
Qed.

End Cursor.
Arguments selects_window {St A sel lst cur ok d} sel_spec k s.
Arguments selects_perm {St A sel lst cur ok d} sel_spec s.
