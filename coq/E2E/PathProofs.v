(* Proofs about the end-to-end data path (E2E/Path.v): what client.send and sendResponse build, that
   the handler is given the caller's arguments and the caller the handler's reply, and that the wire
   carries a sendable message unchanged.  Properties/C09.v composes them. *)
From Coq Require Import List NArith Bool Lia.
From RPCX Require Import Wire.Bytes Wire.BytesProofs Wire.Header Wire.Codec Wire.CodecRoundTrip Wire.StreamProofs Wire.EncodeProofs E2E.Path.
Import ListNotations.
Open Scope N_scope.

Lemma hdr_ok_upd i v h : (0 < i)%nat -> hdr_ok h -> hdr_ok (upd i v h).
Proof.
  intros Hi [Hl Hm]. split; [now rewrite upd_length|].
  rewrite byte_at_upd_other by lia. exact Hm.
Qed.

Lemma hdr_ok_SetMessageType h v : hdr_ok h -> hdr_ok (SetMessageType h v).
Proof. apply hdr_ok_upd. lia. Qed.
Lemma hdr_ok_SetCompressType h v : hdr_ok h -> hdr_ok (SetCompressType h v).
Proof. apply hdr_ok_upd. lia. Qed.
Lemma hdr_ok_SetSerializeType h v : hdr_ok h -> hdr_ok (SetSerializeType h v).
Proof. apply hdr_ok_upd. lia. Qed.
Lemma hdr_ok_SetOneway h b : hdr_ok h -> hdr_ok (SetOneway h b).
Proof. destruct b; apply hdr_ok_upd; lia. Qed.

Lemma put64_length s : length (put64 s) = 8%nat.
Proof. reflexivity. Qed.

Lemma hdr_ok_SetSeq h s : hdr_ok h -> hdr_ok (SetSeq h s).
Proof.
  intros [Hl Hm]. unfold SetSeq. split.
  - rewrite app_length, firstn_length, put64_length, Hl. reflexivity.
  - destruct h; [discriminate Hl|exact Hm].
Qed.

Lemma hdr_ok_new : hdr_ok new_header.
Proof. split; reflexivity. Qed.

Lemma ser_upd i v h : i <> 3%nat -> SerializeType (upd i v h) = SerializeType h.
Proof. intros H. unfold SerializeType. now rewrite byte_at_upd_other. Qed.

Lemma ser_SetMessageType h v : SerializeType (SetMessageType h v) = SerializeType h.
Proof. now apply ser_upd. Qed.
Lemma ser_SetCompressType h v : SerializeType (SetCompressType h v) = SerializeType h.
Proof. now apply ser_upd. Qed.

Lemma ser_SetSerializeType h v : (3 < length h)%nat -> v < 16 -> SerializeType (SetSerializeType h v) = v.
Proof.
  intros Hl. unfold SerializeType, SetSerializeType. rewrite byte_at_upd_same by exact Hl.
  rewrite set_field_read. revert v. apply below_Forall. repeat constructor.
Qed.

Section Messages.
Variable value : Type.
Variable cenc : N -> value -> option bytes.

Lemma client_req_facts k req : k_ser value k < 16 -> client_req value cenc k = Some req ->
  hdr_ok (m_hdr req) /\ SerializeType (m_hdr req) = k_ser value k /\ m_meta req = k_meta value k /\
  m_path req = k_path value k /\ m_meth req = k_meth value k /\
  cenc (k_ser value k) (k_args value k) = Some (m_payload req).
Proof.
  intros Hser H. unfold client_req in H.
  destruct (cenc (k_ser value k) (k_args value k)) as [data|] eqn:Ec; [|discriminate].
  set (h0 := SetSeq (SetMessageType new_header 0) (k_seq value k)) in H.
  set (h1 := if k_oneway value k then SetOneway h0 true else h0) in H.
  assert (Hh1 : hdr_ok h1).
  { assert (hdr_ok h0) by apply hdr_ok_SetSeq, hdr_ok_SetMessageType, hdr_ok_new.
    destruct (k_oneway value k); [now apply hdr_ok_SetOneway|assumption]. }
  assert (Hs2 : SerializeType (SetSerializeType h1 (k_ser value k)) = k_ser value k)
    by (apply ser_SetSerializeType; [rewrite (proj1 Hh1); lia|exact Hser]).
  destruct ((threshold <? lenN data) && negb (k_ct value k =? 0)); injection H as <-; cbn [m_hdr m_meta m_path m_meth m_payload].
  - split; [apply hdr_ok_SetCompressType, hdr_ok_SetSerializeType, Hh1|].
    split; [rewrite ser_SetCompressType; exact Hs2|]. repeat split; reflexivity.
  - split; [apply hdr_ok_SetSerializeType, Hh1|].
    split; [exact Hs2|]. repeat split; reflexivity.
Qed.

Lemma server_res_hdr_ok req reply rm res : hdr_ok (m_hdr req) -> server_res value cenc req reply rm = Some res ->
  hdr_ok (m_hdr res).
Proof.
  intros Hh H. unfold server_res in H.
  destruct (cenc (SerializeType (m_hdr req)) reply) as [data|]; [|discriminate].
  destruct ((threshold <? lenN data) && negb (CompressType (m_hdr req) =? 0)); injection H as <-; cbn [m_hdr].
  - apply hdr_ok_SetCompressType, hdr_ok_SetMessageType, hdr_ok_SetCompressType, Hh.
  - apply hdr_ok_SetMessageType, hdr_ok_SetCompressType, Hh.
Qed.

Lemma server_res_facts req reply rm res : server_res value cenc req reply rm = Some res ->
  SerializeType (m_hdr res) = SerializeType (m_hdr req) /\ m_meta res = rm /\
  m_path res = m_path req /\ m_meth res = m_meth req /\
  cenc (SerializeType (m_hdr req)) reply = Some (m_payload res).
Proof.
  intros H. unfold server_res in H.
  destruct (cenc (SerializeType (m_hdr req)) reply) as [data|] eqn:Ec; [|discriminate].
  destruct ((threshold <? lenN data) && negb (CompressType (m_hdr req) =? 0)); injection H as <-;
    cbn [m_hdr m_meta m_path m_meth m_payload].
  - split; [now rewrite ser_SetCompressType, ser_SetMessageType, ser_SetCompressType|]. repeat split; reflexivity.
  - split; [now rewrite ser_SetMessageType, ser_SetCompressType|]. repeat split; reflexivity.
Qed.

Variable cdec : N -> bytes -> option value.
(* the codecs round-trip (premise about the serialization libraries) *)
Hypothesis codec_rt : forall s v b, cenc s v = Some b -> b <> [] -> cdec s b = Some v.

Theorem handler_sees_what_was_sent k req : k_ser value k < 16 -> client_req value cenc k = Some req ->
  m_payload req <> [] ->
  handler_view value cdec req = (Some (k_args value k), k_meta value k).
Proof.
  intros Hser H Hne. destruct (client_req_facts k req Hser H) as (_ & Hs & Hm & _ & _ & He).
  unfold handler_view. rewrite Hs, Hm. f_equal. now apply codec_rt.
Qed.

Variable vzero : value.
(* only the zero value has an empty encoding (protobuf message of default values, empty byte slice) *)
Hypothesis empty_is_zero : forall s v, cenc s v = Some [] -> v = vzero.

Theorem caller_sees_what_was_replied req reply rm res :
  server_res value cenc req reply rm = Some res ->
  caller_view value cdec vzero res = (Some reply, rm).
Proof.
  intros H. destruct (server_res_facts req reply rm res H) as (Hs & Hm & _ & _ & He).
  unfold caller_view. rewrite Hm. f_equal.
  destruct (m_payload res) as [|x xs] eqn:Ep.
  - f_equal. symmetry. eapply empty_is_zero. exact He.
  - rewrite Hs. apply codec_rt; [exact He|discriminate].
Qed.

End Messages.

Section Proofs.
Variable env : comp_env.
Variable maxlen : N.

(* a message the wire codec can carry: sizes below 4 GiB (and the configured maximum), and, if its
   compress flag is set, a registered compressor that inverts *)
Definition sendable (m : message) : Prop :=
  msg_ok env m /\ comp_ok env m /\ encode_len env m < 16 + U32 /\ (maxlen = 0 \/ encode_len env m <= 16 + maxlen).

Lemma wire m old garbage rest : hdr_ok (m_hdr m) -> sendable m -> lenN garbage = encode_len env m ->
  out_msg (fst (decode env maxlen old (encode_pooled env garbage m ++ rest))) = Ok m /\
  snd (decode env maxlen old (encode_pooled env garbage m ++ rest)) = rest.
Proof.
  intros Hh (Hm & Hc & Hl & Hx) Hg. rewrite encode_pooled_frame_bytes by assumption.
  now apply roundtrip_frame, frame_ok_of_len.
Qed.

End Proofs.
