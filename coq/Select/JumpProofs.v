(* The jump step never moves backwards (Flocq), hence the jump hash is monotone:
   jump key (n+1) is either jump key n or the new bucket n. *)
From Coq Require Import Reals Lia Lra.
From Flocq Require Import Core BinarySingleNaN.
From RPCX Require Import Select.Jump.
Open Scope Z_scope.

Notation fexp := (SpecFloat.fexp prec emax).
Notation rnd := (round radix2 fexp ZnearestE).

Lemma fexp_FLT : forall e, fexp e = FLT_exp (3 - emax - prec) prec e.
Proof. reflexivity. Qed.

Lemma int_format : forall z, Z.abs z < 2^53 -> generic_format radix2 fexp (IZR z).
Proof.
  (* z = z * 2^0 is a float of the format: |z| < 2^prec, and the exponent 0 is above the least one *)
  intros z Hz. apply (generic_format_FLT radix2 (3 - emax - prec) prec).
  apply (FLT_spec _ _ _ _ (Float radix2 z 0)); [unfold F2R; simpl; lra|exact Hz|discriminate].
Qed.

Lemma rnd_int : forall z, Z.abs z < 2^53 -> rnd (IZR z) = IZR z.
Proof. intros. apply round_generic; [apply valid_rnd_N | now apply int_format]. Qed.

Lemma rnd_le : forall x y, (x <= y)%R -> (rnd x <= rnd y)%R.
Proof. intros. apply round_le;
  [ apply (fexp_correct prec emax Hprec) | apply valid_rnd_N | assumption ]. Qed.

Lemma bpow_emax_big : forall z, Z.abs z < 2^64 -> (Rabs (IZR z) < bpow radix2 emax)%R.
Proof.
  intros z Hz. rewrite <- abs_IZR.
  apply Rlt_trans with (IZR (2^64)). now apply IZR_lt.
  change (IZR (2^64)) with (bpow radix2 64). apply bpow_lt. unfold emax; lia.
Qed.

Lemma ofZ_correct : forall z, Z.abs z < 2^53 -> B2R (ofZ z) = IZR z /\ is_finite (ofZ z) = true.
Proof.
  intros z Hz. unfold ofZ.
  generalize (binary_normalize_correct prec emax Hprec Hmax mode_NE z 0 false).
  cbv zeta.
  replace (F2R (Float radix2 z 0)) with (IZR z) by (unfold F2R; simpl; lra).
  simpl round_mode. rewrite rnd_int by exact Hz.
  rewrite Rlt_bool_true. 2:{ apply bpow_emax_big. lia. }
  intros (H1 & H2 & _). split; assumption.
Qed.

(* a range whose ends are representable - an integer below 2^53, a power of two - survives rounding, and what
   lies in it is no overflow *)
Lemma rnd_range : forall lo e x, 0 <= lo < 2^53 -> 0 <= e < emax -> (IZR lo <= x <= bpow radix2 e)%R ->
  (IZR lo <= rnd x <= bpow radix2 e)%R /\ Rlt_bool (Rabs (rnd x)) (bpow radix2 emax) = true.
Proof.
  intros lo e x Hlo He [H1 H2].
  assert (G : generic_format radix2 fexp (bpow radix2 e)).
  { apply generic_format_bpow. rewrite fexp_FLT. unfold FLT_exp, prec, emax in *. lia. }
  assert (B : (IZR lo <= rnd x <= bpow radix2 e)%R).
  { split; [rewrite <- (rnd_int lo) by lia|rewrite <- (round_generic radix2 fexp ZnearestE _ G)]; apply rnd_le; assumption. }
  split; [exact B|]. apply Rlt_bool_true. pose proof (IZR_le 0 lo ltac:(lia)).
  rewrite Rabs_pos_eq by lra. apply Rle_lt_trans with (bpow radix2 e); [apply B|apply bpow_lt, He].
Qed.

Lemma ratio_ge_1 : forall d, 1 <= d <= 2^31 ->
  let r := fdiv (ofZ (2^31)) (ofZ d) in
  is_finite r = true /\ (1 <= B2R r <= IZR (2^31))%R.
Proof.
  intros d Hd r.
  destruct (ofZ_correct (2^31)) as [HT HTf]; [lia|].
  destruct (ofZ_correct d) as [HD HDf]; [lia|].
  assert (Hd' : (1 <= IZR d <= IZR (2^31))%R) by (split; apply IZR_le; lia).
  assert (Hq : (1 <= IZR (2^31) / IZR d <= bpow radix2 31)%R).
  { change (bpow radix2 31) with (IZR (2^31)).
    split; (apply Rmult_le_reg_r with (IZR d); [lra|]); field_simplify; lra || nra. }
  destruct (rnd_range 1 31 _ ltac:(lia) ltac:(unfold emax; lia) Hq) as [Hr Hov].
  generalize (Bdiv_correct prec emax Hprec Hmax mode_NE (ofZ (2^31)) (ofZ d)).
  rewrite HT, HD. simpl round_mode. rewrite Hov. intros H. destruct (H ltac:(lra)) as (H1 & H2 & _).
  unfold r, fdiv. rewrite H1, H2. split; [exact HTf|exact Hr].
Qed.

(* 2^31/d rounds to something >= 1 and b1*ratio to something >= b1 (<= 2^62); truncation is monotone *)
Theorem stepj_ge : forall b1 d, 1 <= b1 <= 2^31 -> 1 <= d <= 2^31 -> b1 <= stepj b1 d.
Proof.
  intros b1 d Hb Hd. unfold stepj.
  destruct (ratio_ge_1 d Hd) as (Hrf & Hr1 & Hr2).
  set (r := fdiv (ofZ (2^31)) (ofZ d)) in *.
  destruct (ofZ_correct b1) as [HB HBf]; [lia|].
  assert (Hb1 : (1 <= IZR b1 <= IZR (2^31))%R) by (split; apply IZR_le; lia).
  assert (Hp : (IZR b1 <= IZR b1 * B2R r <= bpow radix2 62)%R).
  { change (bpow radix2 62) with (IZR (2^31 * 2^31)). rewrite mult_IZR. nra. }
  destruct (rnd_range b1 62 _ ltac:(lia) ltac:(unfold emax; lia) Hp) as [[Hm _] Hov].
  generalize (Bmult_correct prec emax Hprec Hmax mode_NE (ofZ b1) r).
  rewrite HB. simpl round_mode. rewrite Hov. intros (H1 & _).
  apply le_IZR. rewrite Btrunc_correct by exact Hmax. unfold fmul. rewrite H1, round_FIX_IZR.
  rewrite <- (Ztrunc_IZR b1) at 1. apply IZR_le, Ztrunc_le, Hm.
Qed.

Lemma lcg_range key : 0 <= lcg key < 2^64.
Proof. unfold lcg. apply Z.mod_pos_bound. lia. Qed.

Lemma divisor_range key : 0 <= key < 2^64 -> 1 <= Z.shiftr key 33 + 1 <= 2^31.
Proof.
  intros H. rewrite Z.shiftr_div_pow2 by lia.
  assert (0 <= key / 2^33 < 2^31).
  { split; [apply Z.div_pos; lia|]. apply Z.div_lt_upper_bound; lia. }
  lia.
Qed.

Lemma step_increases key j : 0 <= j < 2^31 -> j + 1 <= stepj (j + 1) (Z.shiftr (lcg key) 33 + 1).
Proof.
  intros Hj. apply stepj_ge; [lia|]. apply divisor_range. apply lcg_range.
Qed.

Lemma jloop_stop fuel key b j n : n <= j -> jloop fuel key b j n = b.
Proof.
  intros H. destruct fuel; [reflexivity|]. cbn [jloop]. destruct (Z.ltb_spec j n); [lia|reflexivity].
Qed.

Lemma jloop_go fuel key b j n : j < n ->
  jloop (S fuel) key b j n = jloop fuel (lcg key) j (stepj (j + 1) (Z.shiftr (lcg key) 33 + 1)) n.
Proof. intros H. cbn [jloop]. destruct (Z.ltb_spec j n); [reflexivity|lia]. Qed.

Lemma jloop_range fuel : forall key b j n, 0 <= j < n -> n <= 2^31 -> j <= jloop (S fuel) key b j n < n.
Proof.
  induction fuel as [|fuel IH]; intros key b j n Hj Hn; rewrite jloop_go by lia; [cbn; lia|].
  pose proof (step_increases key j ltac:(lia)) as Hs. set (s := stepj _ _) in *.
  destruct (Z.lt_ge_cases s n) as [Hlt|Hge]; [|rewrite jloop_stop by exact Hge; lia].
  specialize (IH (lcg key) j s n ltac:(lia) Hn). lia.
Qed.

(* n <= m buckets, each loop with fuel enough: the loop for m takes the rounds of the loop for n and either ends
   where that ends or moves on into [n, m) *)
Lemma jloop_le fuel1 : forall fuel2 key b j n m,
  0 <= j -> n <= m <= 2^31 -> m - j < Z.of_nat fuel1 -> n - j < Z.of_nat fuel2 ->
  jloop fuel1 key b j m = jloop fuel2 key b j n \/ n <= jloop fuel1 key b j m < m.
Proof.
  induction fuel1 as [|f1 IH]; intros fuel2 key b j n m Hj Hm H1 H2;
    (destruct (Z.lt_ge_cases j m) as [Hjm|Hjm]; [|left; rewrite !jloop_stop by lia; reflexivity]).
  - lia.
  - destruct (Z.lt_ge_cases j n) as [Hjn|Hjn].
    + destruct fuel2 as [|f2]; [lia|]. rewrite !jloop_go by lia.
      pose proof (step_increases key j ltac:(lia)) as Hs. apply IH; lia.
    + (* the loop for n has stopped; the one for m goes on from j *)
      right. pose proof (jloop_range f1 key b j m). lia.
Qed.

Theorem jump_range key n : 1 <= n <= 2^31 -> 0 <= jump key n < n.
Proof. intros Hn. apply jloop_range; lia. Qed.

Theorem jump_le key n m : n <= m <= 2^31 -> jump key m = jump key n \/ n <= jump key m < m.
Proof. intros H. apply jloop_le; lia. Qed.

Theorem jump_mono key n : 1 <= n -> n + 1 <= 2^31 ->
  jump key (n + 1) = jump key n \/ jump key (n + 1) = n.
Proof. intros _ Hn. destruct (jump_le key n (n + 1)); lia. Qed.
