(* Weighted round-robin with equal weights is plain round-robin (client/selector.go, smooth weighted
   round-robin ring): for n servers of the same positive weight w the ring built by buildRing is
   0,1,...,n-1 repeated w times, so selection k from cursor c is server (c + k) mod n. *)
From Coq Require Import List ZArith Lia.
From RPCX Require Import Base.Cyclic Select.SWRR Select.SWRRProofs.
Open Scope Z_scope.

(* the CurrentWeight vector after j selections of a round: the j servers already selected, then the others *)
Definition round_cw (n : nat) (w : Z) (j : nat) : list Z :=
  repeat (Z.of_nat j * w - Z.of_nat n * w) j ++ repeat (Z.of_nat j * w) (n - j).

Lemma addl_repeat a b k : addl (repeat a k) (repeat b k) = repeat (a + b) k.
Proof. induction k as [|k IH]; [reflexivity|]. cbn [repeat addl]. now rewrite IH. Qed.

Lemma addl_app a1 a2 b1 b2 : length a1 = length b1 ->
  addl (a1 ++ a2) (b1 ++ b2) = addl a1 b1 ++ addl a2 b2.
Proof.
  revert b1. induction a1 as [|x a1 IH]; intros [|y b1] H; try discriminate; [reflexivity|].
  cbn [app addl]. rewrite IH by (simpl in H; lia). reflexivity.
Qed.

Lemma argmax_flat b k : forall i flag, argmax (repeat b k) i b flag = flag.
Proof.
  induction k as [|k IH]; intros i flag; [reflexivity|]. cbn [repeat argmax].
  destruct (Z.gtb_spec b b); [lia|]. apply IH.
Qed.

Lemma argmax_prefix a b j m : a <= 0 -> 0 < b -> forall i flag,
  argmax (repeat a j ++ repeat b (S m)) i 0 flag = (i + j)%nat.
Proof.
  intros Ha Hb. induction j as [|j IH]; intros i flag.
  - cbn [repeat app argmax]. destruct (Z.gtb_spec b 0); [|lia]. rewrite argmax_flat. lia.
  - cbn [repeat app argmax]. destruct (Z.gtb_spec a 0); [lia|]. rewrite IH. lia.
Qed.

Lemma upd_sub_at a b j m W :
  upd_sub j W (repeat a j ++ b :: repeat b m) = repeat a j ++ (b - W) :: repeat b m.
Proof. induction j as [|j IH]; [reflexivity|]. cbn [repeat app upd_sub]. now rewrite IH. Qed.

Lemma sumZ_repeat w n : sumZ (repeat w n) = Z.of_nat n * w.
Proof. induction n as [|n IH]; [reflexivity|]. cbn [repeat sumZ]. rewrite IH. lia. Qed.

Lemma next_in_round n w j : 0 < w -> (j < n)%nat ->
  swrr_next (Z.of_nat n * w) (repeat w n) (round_cw n w j) = (j, round_cw n w (S j)).
Proof.
  intros Hw Hj. rewrite swrr_next_eq.
  2:{ unfold round_cw. rewrite app_length, !repeat_length. lia. }
  2:{ apply sumZ_repeat. }
  unfold round_cw.
  replace (repeat w n) with (repeat w j ++ repeat w (n - j)) by (rewrite <- repeat_app; f_equal; lia).
  rewrite addl_app by (now rewrite !repeat_length).
  rewrite !addl_repeat.
  replace (n - j)%nat with (S (n - S j)) by lia.
  rewrite argmax_prefix by nia.
  cbn [repeat]. rewrite upd_sub_at. f_equal.
  rewrite repeat_cons, <- app_assoc. cbn [app].
  rewrite Nat2Z.inj_succ.
  f_equal; [f_equal; lia|]. f_equal; [lia|]. f_equal. lia.
Qed.

Lemma round_cw_wrap n w : round_cw n w n = round_cw n w 0.
Proof.
  unfold round_cw. rewrite Nat.sub_diag, Nat.sub_0_r. cbn [repeat app]. rewrite app_nil_r.
  f_equal. lia.
Qed.

Lemma build_rounds n w : 0 < w -> forall k j, (j < n)%nat ->
  swrr_build k (Z.of_nat n * w) (repeat w n) (round_cw n w j) =
  (map (fun t => ((j + t) mod n)%nat) (seq 0 k), round_cw n w ((j + k) mod n)).
Proof.
  intros Hw. induction k as [|k IH]; intros j Hj.
  - cbn [swrr_build seq map]. rewrite Nat.add_0_r, Nat.mod_small by lia. reflexivity.
  - cbn [swrr_build]. rewrite next_in_round by assumption.
    (* continue from position (S j) mod n, which is 0 at the end of a round *)
    replace (round_cw n w (S j)) with (round_cw n w (S j mod n))
      by (destruct (Nat.eq_dec (S j) n) as [<-|];
          [rewrite Nat.mod_same, round_cw_wrap by lia|rewrite Nat.mod_small by lia]; reflexivity).
    rewrite IH by (apply Nat.mod_upper_bound; lia). cbn [seq map].
    rewrite Nat.add_0_r, (Nat.mod_small j), <- seq_shift, map_map, !Nat.add_mod_idemp_l by lia.
    f_equal; [f_equal; apply map_ext; intros t; rewrite Nat.add_mod_idemp_l by lia|f_equal]; f_equal; lia.
Qed.

Theorem equal_weights_ring n w : (1 <= n)%nat -> 0 < w ->
  swrr_ring (repeat w n) = map (fun t => (t mod n)%nat) (seq 0 (n * Z.to_nat w)).
Proof.
  intros Hn Hw. unfold swrr_ring. rewrite sumZ_repeat.
  replace (Z.to_nat (Z.of_nat n * w)) with (n * Z.to_nat w)%nat by (rewrite Z2Nat.inj_mul, Nat2Z.id; lia).
  replace (map (fun _ : Z => 0) (repeat w n)) with (round_cw n w 0).
  2:{ unfold round_cw. rewrite Nat.sub_0_r. cbn [repeat app]. clear. induction n as [|n IH]; [reflexivity|].
      cbn [repeat map]. rewrite <- IH. f_equal. }
  rewrite build_rounds by lia. reflexivity.
Qed.

Lemma mod_mul_mod c n m : (n <> 0)%nat -> (m <> 0)%nat -> ((c mod (n * m)) mod n = c mod n)%nat.
Proof.
  intros Hn Hm. rewrite Nat.mod_mul_r by assumption.
  replace (c mod n + n * ((c / n) mod m))%nat with (c mod n + ((c / n) mod m) * n)%nat by lia.
  rewrite Nat.mod_add by assumption. apply Nat.mod_mod. assumption.
Qed.

(* m, not n: the selector only asks of its server count that it is not 0 *)
Theorem equal_weights_round_robin m n w cur k : m <> O -> (1 <= n)%nat -> 0 < w ->
  let s := {| wrr_n := m; wrr_ring := swrr_ring (repeat w n); wrr_cur := cur |} in
  fst (wrr_selects k s) = map (fun t => Some ((cur + t) mod n)%nat) (seq 0 k).
Proof.
  intros Hm Hn Hw s.
  assert (Hring : wrr_ring s = map (fun t => (t mod n)%nat) (seq 0 (n * Z.to_nat w))) by (apply equal_weights_ring; assumption).
  rewrite (wrr_selects_spec k s 0%nat) by (split; [exact Hm|rewrite Hring, map_length, seq_length; nia]).
  unfold window. rewrite map_map, Hring. apply map_ext. intros t.
  rewrite cyc_nth_map_seq by nia. f_equal. apply mod_mul_mod; lia.
Qed.
