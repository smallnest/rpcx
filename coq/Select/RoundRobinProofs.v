From Coq Require Import List Arith.
From RPCX Require Import Base.Cyclic Select.RoundRobin.
Import ListNotations.

Lemma rr_select_spec s d : rr_servers s <> [] ->
  rr_select s = (Some (cyc_nth d (rr_servers s) (rr_i s)),
                 {| rr_servers := rr_servers s; rr_i := rr_i s mod length (rr_servers s) + 1 |}).
Proof.
  intros Hn. unfold rr_select. destruct (rr_servers s) as [|x xs] eqn:E; [congruence|].
  do 2 f_equal. apply nth_indep, Nat.mod_upper_bound. discriminate.
Qed.

Lemma rr_cursor d s : rr_servers s <> [] ->
  advances rr_select rr_servers rr_i (fun s => rr_servers s <> []) d s.
Proof.
  intros Hn. unfold advances. rewrite (rr_select_spec s d Hn). cbn [fst snd rr_servers rr_i].
  assert (length (rr_servers s) <> 0) by (destruct (rr_servers s); [congruence|discriminate]).
  rewrite Nat.add_mod_idemp_l, Nat.add_1_r by assumption. auto.
Qed.

(* rr_selects is Cyclic.selects rr_select written out: the two are convertible *)
Lemma rr_selects_spec k s d : rr_servers s <> [] ->
  fst (rr_selects k s) = map Some (window d (rr_servers s) (rr_i s) k).
Proof. exact (selects_window (rr_cursor d) k s). Qed.

Lemma rr_select_servers s : rr_servers (snd (rr_select s)) = rr_servers s.
Proof. unfold rr_select. destruct (rr_servers s) eqn:E; [exact E|reflexivity]. Qed.

Lemma rr_select_empty_iff s : fst (rr_select s) = None <-> rr_servers s = [].
Proof.
  unfold rr_select. destruct (rr_servers s); [tauto|]. split; discriminate.
Qed.
