From Coq Require Import List ZArith Lia.
From RPCX Require Import Base.Cyclic Select.Simple.
Import ListNotations.

Lemma geo_scan_incl ss : forall minNum cands, incl (geo_scan ss minNum cands) (cands ++ map g_id ss).
Proof.
  induction ss as [|g r IH]; intros m c x H; cbn in *; [rewrite app_nil_r; exact H|].
  destruct (g_dist g) as [d|]; [destruct (d <? m)%Z; [|destruct (d =? m)%Z]|];
    apply IH in H; rewrite ?in_app_iff in *; cbn in *; tauto.
Qed.

(* a distance at or below minNum leaves a candidate behind, so an empty result tells that there was
   none (Select starts from MaxFloat64, and every finite float is at most that) *)
Lemma geo_scan_nil ss : forall minNum cands, geo_scan ss minNum cands = [] ->
  cands = [] /\ Forall (fun g => forall d, g_dist g = Some d -> (minNum < d)%Z) ss.
Proof.
  induction ss as [|g r IH]; intros m c H; cbn in H; [auto|].
  destruct (g_dist g) as [d|] eqn:Ed; [destruct (Z.ltb_spec d m); [|destruct (Z.eqb_spec d m)]|];
    apply IH in H; destruct H as [Hc Hr].
  - (* d < minNum: the candidates start again with g *) discriminate Hc.
  - (* d = minNum: g is appended *) destruct (app_cons_not_nil _ _ _ (eq_sym Hc)).
  - split; [exact Hc|]. constructor; [rewrite Ed; intros ? [= <-]; lia|exact Hr].
  - split; [exact Hc|]. constructor; [rewrite Ed; discriminate|exact Hr].
Qed.

Lemma geo_select_scan ss pick :
  match geo_select ss pick with
  | Some o => In o (geo_scan ss max_float_bits [])
  | None => ss = [] \/ geo_scan ss max_float_bits [] = []
  end.
Proof.
  unfold geo_select. destruct ss as [|a l] eqn:E; [left; reflexivity|]. rewrite <- E.
  destruct (geo_scan ss max_float_bits []) as [|c1 [|c2 cs]]; [right; reflexivity|left; reflexivity|].
  apply (cyc_nth_In c1 (c1 :: c2 :: cs) pick). discriminate.
Qed.

Theorem geo_select_member ss pick o : geo_select ss pick = Some o -> In o (map g_id ss).
Proof.
  intros H. pose proof (geo_select_scan ss pick) as Hs. rewrite H in Hs.
  apply geo_scan_incl in Hs. exact Hs.
Qed.

(* "" exactly when there is no server - provided every server's distance is an ordinary number
   (not NaN, at most MaxFloat64), which the correspondence check observes *)
Theorem geo_select_empty_iff ss pick :
  (forall g, In g ss -> exists d, g_dist g = Some d /\ (d <= max_float_bits)%Z) ->
  (geo_select ss pick = None <-> ss = []).
Proof.
  intros Hd. split; [|intros ->; reflexivity]. intros H.
  pose proof (geo_select_scan ss pick) as Hs. rewrite H in Hs. destruct Hs as [Hs|Hs]; [exact Hs|].
  apply geo_scan_nil in Hs. destruct Hs as [_ Hs], ss as [|a l]; [reflexivity|].
  destruct (Hd a (or_introl eq_refl)) as (d & Hd1 & Hd2).
  pose proof (Forall_inv Hs d Hd1). lia.
Qed.
