From Coq Require Import List ZArith Lia Permutation.
From RPCX Require Import Base.Cyclic Select.SWRR.
Import ListNotations.
Open Scope Z_scope.

Definition cnt (sel : list nat) (i : nat) : Z := Z.of_nat (count_occ Nat.eq_dec sel i).

Lemma cnt_cons x sel i : cnt (x :: sel) i = (if Nat.eq_dec x i then 1 else 0) + cnt sel i.
Proof. unfold cnt. cbn [count_occ]. destruct (Nat.eq_dec x i); lia. Qed.

Lemma addl_length a b : length a = length b -> length (addl a b) = length a.
Proof.
  revert b. induction a as [|x a IH]; intros [|y b] H; simpl in *; try lia.
  rewrite IH by lia. reflexivity.
Qed.

Lemma nth_addl a : forall b i, length a = length b ->
  nth i (addl a b) 0 = nth i a 0 + nth i b 0.
Proof.
  induction a as [|x a IH]; intros [|y b] i H; simpl in *; try lia.
  - destruct i; reflexivity.
  - destruct i; [reflexivity|]. apply IH. lia.
Qed.

Lemma sumZ_addl a : forall b, length a = length b -> sumZ (addl a b) = sumZ a + sumZ b.
Proof.
  induction a as [|x a IH]; intros [|y b] H; simpl in *; try lia.
  rewrite IH by lia. lia.
Qed.

Lemma upd_sub_length f W l : length (upd_sub f W l) = length l.
Proof.
  revert f. induction l as [|x l IH]; intros f; [destruct f; reflexivity|].
  destruct f; simpl; [reflexivity|]. rewrite IH. reflexivity.
Qed.

Lemma nth_upd_sub l : forall f W i, (f < length l)%nat ->
  nth i (upd_sub f W l) 0 = nth i l 0 - (if Nat.eq_dec i f then W else 0).
Proof.
  induction l as [|x l IH]; intros f W i Hf; [simpl in Hf; lia|].
  destruct f as [|f]; cbn [upd_sub].
  - destruct i as [|i]; cbn [nth]; [destruct (Nat.eq_dec 0 0); lia|].
    destruct (Nat.eq_dec (S i) 0); lia.
  - destruct i as [|i]; cbn [nth]; [destruct (Nat.eq_dec 0 (S f)); lia|].
    rewrite IH by (simpl in Hf; lia).
    destruct (Nat.eq_dec i f), (Nat.eq_dec (S i) (S f)); lia.
Qed.

Lemma sumZ_upd_sub l : forall f W, (f < length l)%nat -> sumZ (upd_sub f W l) = sumZ l - W.
Proof.
  induction l as [|x l IH]; intros f W Hf; [simpl in Hf; lia|].
  destruct f as [|f]; cbn [upd_sub sumZ]; [lia|]. rewrite IH by (simpl in Hf; lia). lia.
Qed.

Lemma sumZ_nonpos l : Forall (fun x => x <= 0) l -> sumZ l <= 0.
Proof. induction 1; simpl; lia. Qed.

Lemma sumZ_nonneg_0 l : Forall (fun x => 0 <= x) l ->
  0 <= sumZ l /\ (sumZ l = 0 -> Forall (fun x => x = 0) l).
Proof.
  induction 1 as [|x l Hx _ [IH1 IH2]]; cbn [sumZ]; split; try lia; [constructor|].
  intros E. constructor; [lia|apply IH2; lia].
Qed.

Lemma argmax_spec l : forall i m flag,
  (argmax l i m flag = flag /\ Forall (fun x => x <= m) l) \/
  exists k, argmax l i m flag = (i + k)%nat /\ (k < length l)%nat /\ m < nth k l 0 /\
            Forall (fun x => x <= nth k l 0) l.
Proof.
  induction l as [|x l IH]; intros i m flag; [left; split; [reflexivity|constructor]|].
  cbn [argmax]. destruct (Z.gtb_spec x m) as [Hgt|Hle].
  - right. destruct (IH (S i) x i) as [[-> Hall]|(k & -> & Hk & Hn & Hall)].
    + exists O. cbn [nth length]. repeat split; [lia|lia|lia|]. constructor; [lia|exact Hall].
    + exists (S k). cbn [nth length]. repeat split; [lia|lia|lia|]. constructor; [lia|exact Hall].
  - destruct (IH (S i) m flag) as [[-> Hall]|(k & -> & Hk & Hn & Hall)].
    + left. split; [reflexivity|]. constructor; assumption.
    + right. exists (S k). cbn [nth length]. repeat split; [lia|lia|lia|]. constructor; [lia|exact Hall].
Qed.

Lemma Forall_le_trans (l : list Z) a b :
  a <= b -> Forall (fun x => x <= a) l -> Forall (fun x => x <= b) l.
Proof. intros Hab H. eapply Forall_impl; [|exact H]. simpl. intros; lia. Qed.

(* when W is the sum of the weights, the n = 1 shortcut of next() computes what the general branch computes *)
Lemma swrr_next_eq W ws cws :
  length cws = length ws -> sumZ ws = W ->
  swrr_next W ws cws =
    (argmax (addl cws ws) 0 0 0, upd_sub (argmax (addl cws ws) 0 0 0) W (addl cws ws)).
Proof.
  intros Hlen HW. destruct ws as [|w0 [|w1 ws']], cws as [|c0 [|c1 cws']]; try discriminate; try reflexivity.
  cbn in *. destruct (c0 + w0 >? 0); cbn; do 2 f_equal; lia.
Qed.

Lemma swrr_next_spec W ws cws f c' :
  length cws = length ws -> sumZ ws = W -> 0 < W -> sumZ cws = 0 ->
  swrr_next W ws cws = (f, c') ->
  (f < length ws)%nat /\ length c' = length ws /\ sumZ c' = 0 /\
  (forall i, nth i c' 0 = nth i cws 0 + nth i ws 0 - (if Nat.eq_dec i f then W else 0)) /\
  0 < nth f cws 0 + nth f ws 0 /\
  (forall i, (i < length ws)%nat -> nth i cws 0 + nth i ws 0 <= nth f cws 0 + nth f ws 0).
Proof.
  intros Hlen HW Hpos Hsum. rewrite swrr_next_eq by assumption. intros [= <- <-].
  set (c1 := addl cws ws). set (f := argmax c1 0 0 0).
  assert (Hl1 : length c1 = length ws) by (unfold c1; rewrite addl_length; lia).
  assert (Hs1 : sumZ c1 = W) by (unfold c1; rewrite sumZ_addl by lia; lia).
  assert (Hnth : forall i, nth i c1 0 = nth i cws 0 + nth i ws 0)
    by (intros; unfold c1; apply nth_addl; lia).
  destruct (argmax_spec c1 0 0 0) as [[_ Hall]|(k & Hf & Hr & Hgt & Hall)].
  { apply sumZ_nonpos in Hall. lia. }
  fold f in Hf. cbn in Hf. subst k.
  rewrite upd_sub_length, sumZ_upd_sub, <- Hnth by lia.
  repeat split; try lia.
  - intros i. rewrite nth_upd_sub, Hnth by lia. reflexivity.
  - intros i Hi. rewrite <- !Hnth. rewrite Forall_forall in Hall. apply Hall, nth_In. lia.
Qed.

(* buildRing after k steps: c_i = k * w_i - (times i was chosen) * W *)
Lemma swrr_build_inv W ws : sumZ ws = W -> 0 < W -> Forall (fun w => 0 <= w) ws ->
  forall k cws sel c',
  length cws = length ws -> sumZ cws = 0 ->
  (forall i, (i < length ws)%nat -> - W < nth i cws 0) ->
  swrr_build k W ws cws = (sel, c') ->
  length sel = k /\ Forall (fun x => (x < length ws)%nat) sel /\
  length c' = length ws /\ sumZ c' = 0 /\
  (forall i, (i < length ws)%nat -> - W < nth i c' 0) /\
  (forall i, nth i c' 0 = nth i cws 0 + Z.of_nat k * nth i ws 0 - cnt sel i * W).
Proof.
  intros HW Hpos Hnn. induction k as [|k IH]; intros cws sel c' Hlen Hsum Hlow; cbn [swrr_build].
  - intros [= <- <-]. repeat split; auto. intros i. simpl. lia.
  - destruct (swrr_next W ws cws) as [f c1] eqn:En.
    destruct (swrr_next_spec W ws cws f c1 Hlen HW Hpos Hsum En) as (Hf & Hl & Hs & Hn & Hg & _).
    destruct (swrr_build k W ws c1) as [sel1 c2] eqn:Eb. intros [= <- <-].
    destruct (IH c1 sel1 c2 Hl Hs) as (I1 & I2 & I3 & I4 & I5 & I6); [|exact Eb|].
    { intros i Hi. rewrite Hn. specialize (Hlow i Hi).
      assert (0 <= nth i ws 0) by (eapply Forall_forall; [exact Hnn|apply nth_In, Hi]).
      destruct (Nat.eq_dec i f) as [->|]; lia. }
    repeat split; auto; [simpl; lia|].
    intros i. rewrite I6, Hn, cnt_cons.
    destruct (Nat.eq_dec i f), (Nat.eq_dec f i); subst; try congruence; lia.
Qed.

Lemma nth_zeros (ws : list Z) i : nth i (map (fun _ => 0) ws) 0 = 0.
Proof. exact (map_nth (fun _ => 0) ws 0 i). Qed.

Lemma sumZ_zeros (ws : list Z) : sumZ (map (fun _ => 0) ws) = 0.
Proof. induction ws; simpl; lia. Qed.

Theorem swrr_ring_count ws :
  Forall (fun w => 0 <= w) ws -> 0 < sumZ ws ->
  length (swrr_ring ws) = Z.to_nat (sumZ ws) /\
  Forall (fun x => (x < length ws)%nat) (swrr_ring ws) /\
  forall i, cnt (swrr_ring ws) i = nth i ws 0.
Proof.
  intros Hnn Hpos. unfold swrr_ring. set (W := sumZ ws) in *.
  destruct (swrr_build (Z.to_nat W) W ws (map (fun _ => 0) ws)) as [sel c'] eqn:Eb. cbn [fst].
  destruct (swrr_build_inv W ws eq_refl Hpos Hnn _ _ _ _ (map_length _ _) (sumZ_zeros ws)
              ltac:(intros; rewrite nth_zeros; lia) Eb) as (I1 & I2 & I3 & I4 & I5 & I6).
  split; [exact I1|]. split; [exact I2|].
  (* after W steps every entry of c' is W * (w_i - cnt_i) and above -W, hence >= 0; they sum to 0 *)
  assert (E : forall i, nth i c' 0 = W * (nth i ws 0 - cnt sel i))
    by (intros i; rewrite I6, nth_zeros, Z2Nat.id by lia; ring).
  assert (H0 : Forall (fun x => 0 <= x) c').
  { apply Forall_nth. intros i d Hi. rewrite (nth_indep _ d 0 Hi).
    specialize (I5 i ltac:(lia)). rewrite E in *.
    assert (cnt sel i <= nth i ws 0) by nia. nia. }
  apply sumZ_nonneg_0 in H0. destruct H0 as [_ H0]. specialize (H0 I4).
  intros i. specialize (E i). destruct (nth_in_or_default i c' 0) as [Hin%(proj1 (Forall_forall _ _) H0)|Hd]; nia.
Qed.

Lemma wrr_select_spec s d : wrr_n s <> O -> length (wrr_ring s) <> O ->
  wrr_select s = (Some (cyc_nth d (wrr_ring s) (wrr_cur s)),
                  {| wrr_n := wrr_n s; wrr_ring := wrr_ring s;
                     wrr_cur := S (wrr_cur s mod length (wrr_ring s)) |}).
Proof.
  intros Hn Hr. unfold wrr_select. destruct (wrr_n s); [congruence|].
  destruct (wrr_ring s) as [|x xs] eqn:E; [now elim Hr|].
  do 2 f_equal. apply nth_indep, Nat.mod_upper_bound. discriminate.
Qed.

Definition wrr_ok (s : wrr_state) : Prop := wrr_n s <> O /\ length (wrr_ring s) <> O.

Lemma wrr_cursor d s : wrr_ok s -> advances wrr_select wrr_ring wrr_cur wrr_ok d s.
Proof.
  intros [Hn Hr]. unfold advances.
  rewrite (wrr_select_spec s d Hn Hr).
  unfold wrr_ok. cbn [fst snd wrr_n wrr_ring wrr_cur].
  rewrite <- Nat.add_1_r, Nat.add_mod_idemp_l, Nat.add_1_r by assumption. auto.
Qed.

(* wrr_selects is Cyclic.selects wrr_select written out: the two are convertible *)
Lemma wrr_selects_spec k s d : wrr_ok s ->
  fst (wrr_selects k s) = map Some (window d (wrr_ring s) (wrr_cur s) k).
Proof. exact (selects_window (wrr_cursor d) k s). Qed.

Definition onat_eq_dec : forall a b : option nat, {a = b} + {a <> b}.
Proof. decide equality. apply Nat.eq_dec. Defined.

Lemma clamp_nonneg p : Forall (fun w => 0 <= w) (map clamp_weight p).
Proof.
  induction p as [|[w|] p IH]; constructor; auto; unfold clamp_weight; try lia.
  destruct (Z.ltb_spec w 0); lia.
Qed.

Theorem wrr_window_counts ws cur :
  Forall (fun w => 0 <= w) ws -> 0 < sumZ ws ->
  let s := {| wrr_n := length ws; wrr_ring := swrr_ring ws; wrr_cur := cur |} in
  forall i, Z.of_nat (count_occ onat_eq_dec (fst (wrr_selects (Z.to_nat (sumZ ws)) s)) (Some i)) = nth i ws 0.
Proof.
  intros Hnn Hpos s i.
  destruct (swrr_ring_count ws Hnn Hpos) as (Hlen & Hall & Hcnt).
  assert (Hs : wrr_ok s) by (split; cbn; [intros ->%length_zero_iff_nil; discriminate Hpos|lia]).
  rewrite <- Hlen.
  rewrite (proj1 (Permutation_count_occ onat_eq_dec _ _) (selects_perm (wrr_cursor O) s Hs)).
  rewrite <- (count_occ_map Some Nat.eq_dec onat_eq_dec) by congruence. apply Hcnt.
Qed.
