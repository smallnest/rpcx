From Coq Require Import List ZArith Lia Permutation.
From RPCX Require Import Select.Jump Select.JumpProofs Select.DoubleJump.
Import ListNotations.
Close Scope Z_scope.
Open Scope nat_scope.

Lemma oeqb_eq a b : oeqb a b = true <-> a = b.
Proof.
  destruct a, b; cbn; rewrite ?Nat.eqb_eq; split; congruence.
Qed.

Section Find.
  Context {A : Type} (eqb : A -> A -> bool) (eqb_eq : forall a b, eqb a b = true <-> a = b).

  Lemma find_idx_some x l i : find_idx eqb x l = Some i -> nth_error l i = Some x.
  Proof.
    revert i. induction l as [|y l IH]; intros i; cbn; [discriminate|].
    destruct (eqb x y) eqn:E.
    - intros H. injection H as <-. apply eqb_eq in E. subst. reflexivity.
    - destruct (find_idx eqb x l) as [k|]; cbn; [|discriminate].
      intros H. injection H as <-. apply IH. reflexivity.
  Qed.

  Lemma find_idx_none_iff x l : find_idx eqb x l = None <-> ~ In x l.
  Proof.
    split.
    - induction l as [|y l IH]; cbn; [tauto|].
      destruct (eqb x y) eqn:E; [discriminate|].
      destruct (find_idx eqb x l); cbn; [discriminate|].
      intros _ [H|H]; [|exact (IH eq_refl H)].
      subst. rewrite (proj2 (eqb_eq x x) eq_refl) in E. discriminate.
    - intros H. destruct (find_idx eqb x l) as [i|] eqn:E; [|reflexivity].
      apply find_idx_some, nth_error_In in E. contradiction.
  Qed.

  Lemma find_idx_in x l : In x l -> exists i, find_idx eqb x l = Some i.
  Proof.
    intros H. destruct (find_idx eqb x l) as [i|] eqn:E; [eauto|].
    apply find_idx_none_iff in E. contradiction.
  Qed.
End Find.
Arguments find_idx_some {A eqb} eqb_eq {x l i}.
Arguments find_idx_in {A eqb} eqb_eq {x l}.
Arguments find_idx_none_iff {A eqb} eqb_eq x l.

Lemma set_nth_length {A} i (x : A) l : length (set_nth i x l) = length l.
Proof. revert i. induction l as [|y l IH]; intros [|i]; cbn; auto. Qed.

Lemma nth_set_nth_same {A} i (x d : A) l : i < length l -> nth i (set_nth i x l) d = x.
Proof. revert i. induction l as [|y l IH]; intros [|i] H; cbn in *; try lia; auto. apply IH. lia. Qed.

Lemma nth_set_nth_other {A} i j (x d : A) l : i <> j -> nth j (set_nth i x l) d = nth j l d.
Proof. revert i j. induction l as [|y l IH]; intros [|i] [|j] H; cbn; auto; try lia. Qed.

Lemma In_nth_opt (l : list (option nat)) o : In (Some o) l <-> exists i, nth i l None = Some o.
Proof.
  split.
  - intros H. destruct (In_nth l (Some o) None H) as (i & _ & Hi). eauto.
  - intros (i & Hi). destruct (Nat.lt_ge_cases i (length l)) as [H|H].
    + rewrite <- Hi. apply nth_In. exact H.
    + rewrite nth_overflow in Hi by lia. discriminate.
Qed.

(* loose.a and compact.a hold the same objects, each once, and the free list names distinct holes
   of loose.a.  That every hole is on the free list holds of the library too; nothing here needs it. *)
Record Inv (h : djhash) : Prop := {
  inv_nodup_c : NoDup (ca h);
  inv_mem : forall o, In (Some o) (la h) <-> In o (ca h);
  inv_uniq : forall i j o, nth i (la h) None = Some o -> nth j (la h) None = Some o -> i = j;
  inv_free : forall idx, In idx (lf h) -> idx < length (la h) /\ nth idx (la h) None = None;
  inv_nodup_f : NoDup (lf h) }.

Lemma inv_new : Inv dj_new.
Proof. constructor; cbn; try constructor; try tauto. intros i j o H. destruct i; discriminate. Qed.

Lemma compact_add_in ca x o : In o (compact_add ca x) <-> In o ca \/ o = x.
Proof.
  unfold compact_add. destruct (find_idx Nat.eqb x ca) as [i|] eqn:E.
  - apply (find_idx_some Nat.eqb_eq) in E. apply nth_error_In in E.
    split; [tauto|]. intros [H| ->]; assumption.
  - rewrite in_app_iff. cbn. intuition.
Qed.

Lemma set_nth_app {A} (pre post : list A) y v :
  set_nth (length pre) v (pre ++ y :: post) = pre ++ v :: post.
Proof. induction pre as [|p pre IH]; cbn; [reflexivity|]. rewrite IH. reflexivity. Qed.

Lemma compact_remove_absent ca x : ~ In x ca -> compact_remove ca x = ca.
Proof.
  intros Hx. unfold compact_remove. rewrite (proj2 (find_idx_none_iff Nat.eqb_eq x ca) Hx).
  reflexivity.
Qed.

(* compact.remove overwrites x with the last element z and cuts the last slot off *)
Lemma compact_remove_perm ca x : In x ca -> Permutation ca (x :: compact_remove ca x).
Proof.
  intros Hx. destruct (find_idx_in Nat.eqb_eq Hx) as (idx & E).
  unfold compact_remove. rewrite E. apply (find_idx_some Nat.eqb_eq) in E.
  destruct (nth_error_split ca idx E) as (pre & post & -> & <-).
  destruct (exists_last (l := x :: post)) as (body & z & Hz); [discriminate|].
  replace (nth _ (pre ++ x :: post) 0) with z
    by (rewrite Hz, app_assoc, app_length, Nat.add_sub; symmetry; apply nth_middle).
  rewrite set_nth_app. symmetry. apply Permutation_cons_app.
  destruct body as [|b body]; injection Hz as -> ->.
  - rewrite removelast_last, app_nil_r. reflexivity.
  - rewrite app_comm_cons, app_assoc, removelast_last.
    apply Permutation_app_head, Permutation_cons_append.
Qed.

Lemma compact_remove_nodup ca x : NoDup ca -> NoDup (compact_remove ca x).
Proof.
  intros Hnd. destruct (in_dec Nat.eq_dec x ca) as [Hx|Hx]; [|rewrite compact_remove_absent; assumption].
  apply (Permutation_NoDup (compact_remove_perm ca x Hx)) in Hnd. inversion Hnd. assumption.
Qed.

Lemma compact_remove_in ca x o : NoDup ca -> (In o (compact_remove ca x) <-> In o ca /\ o <> x).
Proof.
  intros Hnd. destruct (in_dec Nat.eq_dec x ca) as [Hx|Hx].
  - pose proof (compact_remove_perm ca x Hx) as Hp.
    apply (Permutation_NoDup Hp) in Hnd. inversion Hnd as [|? ? Hnx _]; subst.
    rewrite (Permutation_in' (eq_refl o) Hp). cbn. split; [|intros [[->|H] Hne]; congruence].
    intros H. split; [right; exact H|]. intros ->. exact (Hnx H).
  - rewrite compact_remove_absent by exact Hx. split; [|tauto].
    intros H. split; [exact H|]. intros ->. exact (Hx H).
Qed.

Lemma find_some_nth la x idx :
  find_idx oeqb (Some x) la = Some idx -> nth idx la None = Some x /\ idx < length la.
Proof.
  intros E. apply (find_idx_some oeqb_eq) in E.
  split; [apply nth_error_nth, E|]. apply nth_error_Some. rewrite E. discriminate.
Qed.

(* Add and Remove change loose.a in one slot idx: writing a slot in range, or appending (idx is
   then the old length).  What slot i holds afterwards: *)
Lemma slot_set_nth (l : list (option nat)) idx v i o : idx < length l ->
  (nth i (set_nth idx v l) None = Some o <->
   (i = idx /\ v = Some o) \/ (i <> idx /\ nth i l None = Some o)).
Proof.
  intros Hl. destruct (Nat.eq_dec idx i) as [<-|Hne].
  - rewrite nth_set_nth_same by exact Hl. intuition congruence.
  - rewrite nth_set_nth_other by exact Hne. intuition congruence.
Qed.

Lemma slot_snoc (l : list (option nat)) v i o :
  nth i (l ++ [v]) None = Some o <->
  (i = length l /\ v = Some o) \/ (i <> length l /\ nth i l None = Some o).
Proof.
  destruct (lt_eq_lt_dec i (length l)) as [[H| ->]|H].
  - rewrite app_nth1 by exact H. intuition lia.
  - rewrite nth_middle. intuition congruence.
  - rewrite !nth_overflow by (rewrite ?app_length; cbn; lia). intuition (lia || congruence).
Qed.

Lemma free_set_nth (l : list (option nat)) idx v k :
  k <> idx -> k < length l /\ nth k l None = None ->
  k < length (set_nth idx v l) /\ nth k (set_nth idx v l) None = None.
Proof. intros Hne H. rewrite set_nth_length, nth_set_nth_other by congruence. exact H. Qed.

(* ... and what that does to inv_mem and inv_uniq, whichever operation it was *)
Lemma loose_upd (l l' : list (option nat)) idx v :
  (forall i o, nth i l' None = Some o <-> (i = idx /\ v = Some o) \/ (i <> idx /\ nth i l None = Some o)) ->
  (forall i j o, nth i l None = Some o -> nth j l None = Some o -> i = j) ->
  (forall o, v = Some o -> ~ In (Some o) l) ->
  (forall o, In (Some o) l' <-> v = Some o \/ (In (Some o) l /\ nth idx l None <> Some o)) /\
  (forall i j o, nth i l' None = Some o -> nth j l' None = Some o -> i = j).
Proof.
  intros Hs Hu Hv. split.
  - intros o. rewrite !In_nth_opt. split.
    + intros (i & Hi). apply Hs in Hi. destruct Hi as [[_ E]|[Hne Hi]]; [left; exact E|].
      right. split; [eauto|]. intros Hx. apply Hne. eapply Hu; eassumption.
    + intros [E|[(i & Hi) Hx]]; [exists idx|exists i]; apply Hs; [auto|].
      right. split; [congruence|exact Hi].
  - intros i j o Hi Hj. apply Hs in Hi, Hj.
    destruct Hi as [[-> Ei]|[Ni Hi]], Hj as [[-> Ej]|[Nj Hj]];
      [reflexivity| | |eapply Hu; eassumption]; exfalso.
    + apply (Hv o Ei), In_nth_opt. eauto.
    + apply (Hv o Ej), In_nth_opt. eauto.
Qed.

Lemma dj_add_member h x : Inv h -> In x (ca h) -> dj_add h x = h.
Proof.
  intros Hi Hx. unfold dj_add, loose_add, compact_add.
  destruct (find_idx_in oeqb_eq (proj2 (inv_mem h Hi x) Hx)) as (i & ->).
  destruct (find_idx_in Nat.eqb_eq Hx) as (j & ->).
  destruct h; reflexivity.
Qed.

Lemma dj_add_fresh h x : Inv h -> ~ In x (ca h) ->
  dj_add h x = match lf h with
               | [] => mkDJ (la h ++ [Some x]) [] (ca h ++ [x])
               | idx :: rest => mkDJ (set_nth idx (Some x) (la h)) rest (ca h ++ [x])
               end.
Proof.
  intros Hi Hx. unfold dj_add, loose_add, compact_add.
  rewrite (proj2 (find_idx_none_iff Nat.eqb_eq _ _) Hx).
  rewrite (proj2 (find_idx_none_iff oeqb_eq _ _)) by (rewrite (inv_mem h Hi); exact Hx).
  destruct (lf h); reflexivity.
Qed.

Lemma dj_remove_absent h x : Inv h -> ~ In x (ca h) -> dj_remove h x = h.
Proof.
  intros Hi Hx. unfold dj_remove, loose_remove, compact_remove.
  rewrite (proj2 (find_idx_none_iff Nat.eqb_eq _ _) Hx).
  rewrite (proj2 (find_idx_none_iff oeqb_eq _ _)) by (rewrite (inv_mem h Hi); exact Hx).
  destruct h; reflexivity.
Qed.

Theorem inv_add h x : Inv h -> Inv (dj_add h x).
Proof.
  intros Hi. destruct (in_dec Nat.eq_dec x (ca h)) as [Hx|Hx]; [rewrite dj_add_member; assumption|].
  rewrite dj_add_fresh by assumption. destruct Hi as [Hc Hm Hu Hf Hnf].
  assert (Hxl : forall o, Some x = Some o -> ~ In (Some o) (la h)) by (intros o [= <-]; rewrite Hm; exact Hx).
  assert (Hc' : NoDup (ca h ++ [x]))
    by (apply (Permutation_NoDup (Permutation_cons_append (ca h) x)); constructor; assumption).
  destruct (lf h) as [|idx rest] eqn:Elf.
  - (* append: the slot is the old length *)
    destruct (loose_upd (la h) (la h ++ [Some x]) (length (la h)) (Some x)) as [Hm' Hu'];
      [intros; apply slot_snoc|exact Hu|exact Hxl|].
    constructor; cbn [la lf ca]; [exact Hc'| |exact Hu'|intros ? []|constructor].
    intros o. rewrite Hm', in_app_iff, <- Hm, nth_overflow by lia. cbn. intuition congruence.
  - (* reuse the free slot idx *)
    destruct (Hf idx (or_introl eq_refl)) as [Hil Hin]. inversion Hnf as [|? ? Hnr Hndr]; subst.
    destruct (loose_upd (la h) (set_nth idx (Some x) (la h)) idx (Some x)) as [Hm' Hu'];
      [intros; apply slot_set_nth, Hil|exact Hu|exact Hxl|].
    constructor; cbn [la lf ca]; [exact Hc'| |exact Hu'| |exact Hndr].
    + intros o. rewrite Hm', in_app_iff, <- Hm, Hin. cbn. intuition congruence.
    + intros k Hk. apply free_set_nth; [intros ->; exact (Hnr Hk)|exact (Hf k (or_intror Hk))].
Qed.

Theorem inv_remove h x : Inv h -> Inv (dj_remove h x).
Proof.
  intros Hi. destruct (in_dec Nat.eq_dec x (ca h)) as [Hx|Hx]; [|rewrite dj_remove_absent; assumption].
  destruct Hi as [Hc Hm Hu Hf Hnf]. unfold dj_remove, loose_remove.
  destruct (find_idx_in oeqb_eq (proj2 (Hm x) Hx)) as (idx & El). rewrite El.
  destruct (find_some_nth _ _ _ El) as [Hnx Hil].
  destruct (loose_upd (la h) (set_nth idx None (la h)) idx None) as [Hm' Hu'];
    [intros; apply slot_set_nth, Hil|exact Hu|discriminate|].
  constructor; cbn [la lf ca]; [apply compact_remove_nodup, Hc| |exact Hu'| |].
  - intros o. rewrite Hm', (compact_remove_in _ _ _ Hc), <- Hm, Hnx. intuition congruence.
  - intros k [<-|Hk].
    + rewrite set_nth_length, nth_set_nth_same by exact Hil. auto.
    + apply free_set_nth; [|exact (Hf k Hk)]. intros ->. destruct (Hf idx Hk). congruence.
  - constructor; [|exact Hnf]. intros Hk. destruct (Hf idx Hk) as [_ Hn]. congruence.
Qed.

Theorem members_add h x o : In o (ca (dj_add h x)) <-> In o (ca h) \/ o = x.
Proof.
  unfold dj_add. destruct (loose_add (la h) (lf h) x). apply compact_add_in.
Qed.

Theorem members_remove h x o : Inv h -> (In o (ca (dj_remove h x)) <-> In o (ca h) /\ o <> x).
Proof.
  intros Hi. unfold dj_remove. destruct (loose_remove (la h) (lf h) x).
  apply compact_remove_in. apply Hi.
Qed.

Definition small (n : nat) : Prop := (Z.of_nat n < 2^31)%Z.

Lemma small_le n m : n <= m -> small m -> small n. Proof. unfold small. lia. Qed.

Lemma small_S n : small (S n) -> small n. Proof. apply small_le. lia. Qed.

Definition jidx (key : Z) (n : nat) : nat := Z.to_nat (jump key (Z.of_nat n)).

Lemma jidx_lt key n : n <> 0 -> small n -> jidx key n < n.
Proof.
  intros Hn Hs. unfold small in Hs. pose proof (jump_range key (Z.of_nat n) ltac:(lia)). unfold jidx. lia.
Qed.

Lemma jidx_S key n : small (S n) -> jidx key (S n) = n \/ jidx key (S n) = jidx key n /\ jidx key n < n.
Proof.
  intros Hs. destruct n as [|n']; [left; pose proof (jidx_lt key 1 ltac:(lia) Hs); lia|].
  set (n := S n') in *. unfold small in Hs. unfold jidx at 1 2. rewrite Nat2Z.inj_succ, <- Z.add_1_r.
  destruct (jump_mono key (Z.of_nat n) ltac:(lia) ltac:(lia)) as [-> | ->].
  - right. split; [reflexivity|]. apply jidx_lt; [discriminate|unfold small; lia].
  - left. apply Nat2Z.id.
Qed.

Definition loose_get (l : list (option nat)) (key : Z) : option nat :=
  match l with
  | [] => None
  | _ => nth (jidx key (length l)) l None
  end.
(* Go reads a[h] and has no default: out of range it would panic, where the model answers the head *)
Definition compact_get (c : list nat) (key : Z) : option nat :=
  match c with
  | [] => None
  | d :: _ => Some (nth (jidx key (length c)) c d)
  end.

Lemma dj_get_split h key :
  dj_get h key = match loose_get (la h) key with
                 | Some o => Some o
                 | None => compact_get (ca h) (mul64 key 14313749767032793493)
                 end.
Proof. reflexivity. Qed.

Lemma loose_get_nth l key : loose_get l key = nth (jidx key (length l)) l None.
Proof. destruct l; [destruct (jidx _ _)|]; reflexivity. Qed.

Lemma compact_get_nth_error c key : small (length c) ->
  compact_get c key = nth_error c (jidx key (length c)).
Proof.
  intros Hs. destruct c as [|d c']; [destruct (jidx _ _); reflexivity|].
  symmetry. apply (nth_error_nth' _ d), jidx_lt; [discriminate|exact Hs].
Qed.

(* an index out of range reads the default None, so this needs no bound on the length *)
Lemma loose_get_in l key o : loose_get l key = Some o -> In (Some o) l.
Proof. rewrite loose_get_nth. intros H. apply In_nth_opt. eauto. Qed.

Theorem get_member h key o :
  Inv h -> small (length (ca h)) -> dj_get h key = Some o -> In o (ca h).
Proof.
  intros Hi Hc. rewrite dj_get_split.
  destruct (loose_get (la h) key) as [o'|] eqn:E.
  - intros [= <-]. apply (inv_mem h Hi), (loose_get_in _ _ _ E).
  - rewrite compact_get_nth_error by exact Hc. apply nth_error_In.
Qed.

Theorem get_nonempty h key : ca h <> [] -> dj_get h key <> None.
Proof.
  intros Hne. rewrite dj_get_split. destruct (loose_get (la h) key); [discriminate|].
  destruct (ca h); [congruence|discriminate].
Qed.

Theorem get_none_iff h key : Inv h -> (dj_get h key = None <-> ca h = []).
Proof.
  intros Hi. split.
  - intros H. destruct (ca h) as [|c cs] eqn:E; [reflexivity|].
    destruct (get_nonempty h key); [rewrite E; discriminate|exact H].
  - intros He. rewrite dj_get_split, He. destruct (loose_get (la h) key) as [o|] eqn:E; [|reflexivity].
    apply loose_get_in, (inv_mem h Hi) in E. rewrite He in E. destruct E.
Qed.

Theorem get_empty h key : Inv h -> small (length (la h)) -> ca h = [] -> dj_get h key = None.
Proof. intros Hi _. apply get_none_iff, Hi. Qed.

Lemma compact_get_add c x key : small (S (length c)) ->
  compact_get (c ++ [x]) key = compact_get c key \/ compact_get (c ++ [x]) key = Some x.
Proof.
  intros Hs. rewrite !compact_get_nth_error, app_length, Nat.add_1_r
    by (rewrite ?app_length, ?Nat.add_1_r; auto using small_S).
  destruct (jidx_S key (length c) Hs) as [-> | [-> Hlt]].
  - right. rewrite nth_error_app2, Nat.sub_diag by lia. reflexivity.
  - left. apply nth_error_app1, Hlt.
Qed.

Theorem add_monotone h x key :
  Inv h -> small (S (length (la h))) -> small (S (length (ca h))) ->
  dj_get (dj_add h x) key = dj_get h key \/ dj_get (dj_add h x) key = Some x /\ ~ In x (ca h).
Proof.
  intros Hi Hsl Hsc.
  destruct (in_dec Nat.eq_dec x (ca h)) as [Hx|Hx]; [left; rewrite dj_add_member by assumption; reflexivity|].
  enough (dj_get (dj_add h x) key = dj_get h key \/ dj_get (dj_add h x) key = Some x) by tauto.
  rewrite !dj_get_split, dj_add_fresh by assumption.
  pose proof (compact_get_add (ca h) x (mul64 key 14313749767032793493) Hsc) as Hcg.
  destruct (lf h) as [|idx rest] eqn:Elf; cbn [la ca]; rewrite !loose_get_nth.
  - (* appended to loose.a *)
    rewrite app_length, Nat.add_1_r. destruct (jidx_S key (length (la h)) Hsl) as [-> | [-> Hlt]].
    + right. rewrite nth_middle. reflexivity.
    + rewrite app_nth1 by exact Hlt. destruct (nth _ (la h) None); [left; reflexivity|exact Hcg].
  - (* a free slot is reused *)
    destruct (inv_free h Hi idx ltac:(rewrite Elf; left; reflexivity)) as [Hil Hin].
    rewrite set_nth_length. set (j := jidx key (length (la h))).
    destruct (Nat.eq_dec idx j) as [Ej|Ej].
    + right. rewrite <- Ej. rewrite nth_set_nth_same by exact Hil. reflexivity.
    + rewrite nth_set_nth_other by exact Ej.
      destruct (nth j (la h) None); [left; reflexivity|exact Hcg].
Qed.
