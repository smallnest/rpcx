From Coq Require Import List Arith Lia Permutation.
From RPCX Require Import Select.DoubleJump Select.DoubleJumpProofs.
Import ListNotations.
Close Scope Z_scope.
Open Scope nat_scope.

Lemma insert_sorted_perm x l : Permutation (insert_sorted x l) (x :: l).
Proof.
  induction l as [|y l IH]; cbn; [reflexivity|]. destruct (x <=? y); [reflexivity|].
  rewrite IH. apply perm_swap.
Qed.

Lemma sort_nat_Permutation l : Permutation (sort_nat l) l.
Proof.
  induction l as [|x l IH]; cbn; [constructor|]. rewrite insert_sorted_perm, IH. reflexivity.
Qed.

Lemma sort_nat_in y l : In y (sort_nat l) <-> In y l.
Proof. split; apply Permutation_in; [|symmetry]; apply sort_nat_Permutation. Qed.

(* a finite comparison of x, y and the head of the list in all orders *)
Lemma insert_sorted_comm x y l : insert_sorted x (insert_sorted y l) = insert_sorted y (insert_sorted x l).
Proof.
  induction l as [|z l IH]; cbn;
    repeat (match goal with |- context [?a <=? ?b] => destruct (Nat.leb_spec a b) end; cbn);
    try lia; try reflexivity; try (f_equal; (lia || exact IH)).
  all: replace y with x by lia; reflexivity.
Qed.

Lemma sort_nat_perm l1 l2 : Permutation l1 l2 -> sort_nat l1 = sort_nat l2.
Proof.
  induction 1 as [|x l l' Hp IH|x y l|l l' l'' H1 IH1 H2 IH2].
  - reflexivity.
  - change (insert_sorted x (sort_nat l) = insert_sorted x (sort_nat l')). rewrite IH. reflexivity.
  - apply insert_sorted_comm.
  - congruence.
Qed.

Definition SelInv (s : chsel) : Prop :=
  Inv (ch_h s) /\ forall o, In o (ch_servers s) <-> In o (ca (ch_h s)).

Lemma fold_add_inv l : forall h, Inv h -> Inv (fold_left dj_add l h).
Proof. induction l as [|x l IH]; intros h Hi; cbn; [exact Hi|]. apply IH, inv_add, Hi. Qed.

Lemma fold_add_members l : forall h o, In o (ca (fold_left dj_add l h)) <-> In o (ca h) \/ In o l.
Proof.
  induction l as [|x l IH]; intros h o; cbn; [tauto|].
  rewrite IH, members_add. intuition.
Qed.

Definition rm_step (keys : list nat) (h : djhash) (k : nat) : djhash :=
  if existsb (Nat.eqb k) keys then h else dj_remove h k.

Lemma rm_step_cases keys h k :
  (In k keys /\ rm_step keys h k = h) \/ (~ In k keys /\ rm_step keys h k = dj_remove h k).
Proof.
  unfold rm_step. destruct (existsb (Nat.eqb k) keys) eqn:E; [left|right]; (split; [|reflexivity]).
  - apply existsb_exists in E. destruct E as (x & Hx & E). apply Nat.eqb_eq in E. subst. exact Hx.
  - intros H. rewrite (proj2 (existsb_exists _ _)) in E; [discriminate|].
    exists k. split; [exact H|apply Nat.eqb_refl].
Qed.

Lemma rm_step_inv keys h k : Inv h -> Inv (rm_step keys h k).
Proof.
  intros Hi. destruct (rm_step_cases keys h k) as [[_ ->]|[_ ->]]; [exact Hi|apply inv_remove, Hi].
Qed.

Lemma rm_step_members keys h k o : Inv h ->
  (In o (ca (rm_step keys h k)) <-> In o (ca h) /\ (o = k -> In o keys)).
Proof.
  intros Hi. destruct (rm_step_cases keys h k) as [[Hk ->]|[Hk ->]].
  - split; [intros H; split; [exact H|intros ->; exact Hk]|tauto].
  - rewrite (members_remove _ _ _ Hi). split; intros [H1 H2]; (split; [exact H1|]).
    + intros E. destruct (H2 E).
    + intros ->. apply Hk, H2. reflexivity.
Qed.

Lemma fold_rm_inv keys l : forall h, Inv h -> Inv (fold_left (rm_step keys) l h).
Proof. induction l as [|x l IH]; intros h Hi; cbn; [exact Hi|]. apply IH, rm_step_inv, Hi. Qed.

Lemma fold_rm_members keys l : forall h o, Inv h ->
  (In o (ca (fold_left (rm_step keys) l h)) <-> In o (ca h) /\ (In o l -> In o keys)).
Proof.
  induction l as [|x l IH]; intros h o Hi; cbn; [tauto|].
  rewrite IH, rm_step_members by (try apply rm_step_inv; exact Hi). intuition (subst; auto).
Qed.

Lemma ch_update_h s keys :
  ch_h (ch_update s keys) =
  fold_left (rm_step keys) (ch_servers s) (fold_left dj_add (sort_nat keys) (ch_h s)).
Proof. reflexivity. Qed.

Theorem ch_update_inv s keys : SelInv s ->
  SelInv (ch_update s keys) /\ (forall o, In o (ch_servers (ch_update s keys)) <-> In o keys).
Proof.
  intros [Hi Hm].
  assert (Hi1 : Inv (fold_left dj_add (sort_nat keys) (ch_h s))) by (apply fold_add_inv, Hi).
  split; [split|]; rewrite ?ch_update_h.
  - apply fold_rm_inv, Hi1.
  - intros o. rewrite (fold_rm_members _ _ _ _ Hi1), fold_add_members, <- Hm.
    unfold ch_update. cbn [ch_servers]. rewrite !sort_nat_in. tauto.
  - intros o. apply sort_nat_in.
Qed.

(* newConsistentHashSelector is UpdateServer on the empty selector *)
Theorem ch_new_inv keys : SelInv (ch_new keys) /\ (forall o, In o (ch_servers (ch_new keys)) <-> In o keys).
Proof.
  change (ch_new keys) with (ch_update (mkCH dj_new []) keys). apply ch_update_inv.
  split; [exact inv_new|reflexivity].
Qed.

Definition ch_small (s : chsel) : Prop :=
  small (S (length (la (ch_h s)))) /\ small (S (length (ca (ch_h s)))).

Lemma SelInv_empty s : SelInv s -> (ch_servers s = [] <-> ca (ch_h s) = []).
Proof.
  intros [_ Hm]. split; intros E; apply incl_l_nil; intros o Ho; apply Hm in Ho; rewrite E in Ho; exact Ho.
Qed.

(* under the invariant the selector's own emptiness test is redundant: doublejump answers nil *)
Lemma ch_select_get s key : SelInv s -> ch_select s key = dj_get (ch_h s) key.
Proof.
  intros Hs. unfold ch_select. destruct (ch_servers s) as [|a l] eqn:E; [|reflexivity].
  symmetry. apply get_none_iff; [apply Hs|]. apply SelInv_empty; assumption.
Qed.

Theorem ch_select_member s key o : SelInv s -> small (length (ca (ch_h s))) ->
  ch_select s key = Some o -> In o (ch_servers s).
Proof.
  intros Hs Hc. rewrite ch_select_get by exact Hs. destruct Hs as [Hi Hm].
  intros H. apply Hm. exact (get_member _ _ _ Hi Hc H).
Qed.

Lemma fold_add_members_id l : forall h, Inv h -> (forall x, In x l -> In x (ca h)) -> fold_left dj_add l h = h.
Proof.
  induction l as [|x l IH]; intros h Hi Hl; cbn; [reflexivity|].
  rewrite dj_add_member by (auto; apply Hl; left; reflexivity). apply IH; [exact Hi|].
  intros y Hy. apply Hl. right. exact Hy.
Qed.

Lemma fold_rm_id keys l : forall h, (forall x, In x l -> In x keys) -> fold_left (rm_step keys) l h = h.
Proof.
  induction l as [|x l IH]; intros h Hl; cbn; [reflexivity|].
  destruct (rm_step_cases keys h x) as [[_ ->]|[Hn _]]; [|destruct Hn; apply Hl; left; reflexivity].
  apply IH. intros y Hy. apply Hl. right. exact Hy.
Qed.

Lemma ch_update_h_additions s keys : (forall o, In o (ch_servers s) -> In o keys) ->
  ch_h (ch_update s keys) = fold_left dj_add (sort_nat keys) (ch_h s).
Proof. intros H. apply fold_rm_id, H. Qed.

Theorem ch_update_same_set s keys : SelInv s ->
  (forall o, In o keys <-> In o (ch_servers s)) -> ch_h (ch_update s keys) = ch_h s.
Proof.
  intros [Hi Hm] Hsame. rewrite ch_update_h_additions by (intros o; apply Hsame).
  apply fold_add_members_id; [exact Hi|]. intros x Hx. apply Hm, Hsame, sort_nat_in, Hx.
Qed.

Lemma la_length_add h x : length (la (dj_add h x)) <= S (length (la h)).
Proof.
  unfold dj_add, loose_add. destruct (find_idx oeqb (Some x) (la h)); cbn [la]; [lia|].
  destruct (lf h); cbn [la]; [rewrite app_length; cbn; lia|rewrite set_nth_length; lia].
Qed.

Lemma ca_length_add h x : length (ca (dj_add h x)) <= S (length (ca h)).
Proof.
  unfold dj_add. destruct (loose_add (la h) (lf h) x). cbn [ca]. unfold compact_add.
  destruct (find_idx Nat.eqb x (ca h)); [lia|rewrite app_length; cbn; lia].
Qed.

Lemma fold_add_monotone l : forall h key, Inv h ->
  small (S (length (la h) + length l)) -> small (S (length (ca h) + length l)) ->
  dj_get (fold_left dj_add l h) key = dj_get h key \/
  exists x, dj_get (fold_left dj_add l h) key = Some x /\ In x l /\ ~ In x (ca h).
Proof.
  induction l as [|x l IH]; intros h key Hi Hs1 Hs2; cbn [fold_left]; [left; reflexivity|].
  cbn [length] in Hs1, Hs2. pose proof (la_length_add h x). pose proof (ca_length_add h x). unfold small in *.
  destruct (IH (dj_add h x) key (inv_add h x Hi)) as [->|(y & E & Hy & Hn)]; [lia|lia| |].
  - destruct (add_monotone h x key Hi) as [E|[E Hx]]; [unfold small; lia|unfold small; lia|left; exact E|].
    right. exists x. cbn. auto.
  - right. exists y. rewrite members_add in Hn. cbn. tauto.
Qed.

Theorem ch_update_additions_monotone s keys key : SelInv s ->
  (forall o, In o (ch_servers s) -> In o keys) ->
  small (S (length (la (ch_h s)) + length keys)) -> small (S (length (ca (ch_h s)) + length keys)) ->
  ch_select (ch_update s keys) key = ch_select s key \/
  exists x, ch_select (ch_update s keys) key = Some x /\ In x keys /\ ~ In x (ch_servers s).
Proof.
  intros Hs Hsup Hs1 Hs2. rewrite !ch_select_get by (try apply ch_update_inv; exact Hs).
  rewrite ch_update_h_additions by exact Hsup. destruct Hs as [Hi Hm].
  rewrite <- (Permutation_length (sort_nat_Permutation keys)) in Hs1, Hs2.
  destruct (fold_add_monotone (sort_nat keys) (ch_h s) key Hi Hs1 Hs2) as [E|(x & E & Hx & Hn)];
    [left; exact E|right].
  exists x. rewrite <- sort_nat_in, Hm. auto.
Qed.
