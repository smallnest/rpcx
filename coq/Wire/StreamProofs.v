(* What Decode does on any stream (decode_cases) and after a well-formed header (decode_after_header): the list-level
   parse of the body bytes just read, whatever the reused object holds. *)
From Coq Require Import List NArith Bool Lia.
From RPCX Require Import Wire.Bytes Wire.BytesProofs Wire.Header Wire.Codec Wire.CodecSpec Wire.CodecProofs Wire.CodecRoundTrip.
Import ListNotations.
Open Scope N_scope.

Definition out_msg (o : outcome msgobj) : outcome message :=
  match o with Ok x => Ok (o_msg x) | Err e => Err e | Panic => Panic end.

Lemma read_full_app n (a b : bytes) : lenN a = n -> read_full n (a ++ b) = (Ok a, b).
Proof.
  intros <-. unfold read_full.
  destruct (N.eqb_spec (lenN a) 0) as [E|E].
  - destruct a; [reflexivity|rewrite lenN_cons in E; lia].
  - rewrite lenN_app. destruct (N.leb_spec (lenN a) (lenN a + lenN b)); [|lia].
    rewrite takeN_app, dropN_app. reflexivity.
Qed.

Lemma clean_Err {A} e : e <> RecoveredPanic -> clean (@Err A e).
Proof. intros He. split; [discriminate|]. intros E. now injection E. Qed.

Lemma read_full_cases n s :
  (exists b r, read_full n s = (Ok b, r) /\ s = b ++ r /\ lenN b = n) \/
  (exists e r, read_full n s = (Err e, r) /\ e <> RecoveredPanic).
Proof.
  unfold read_full. destruct (N.eqb_spec n 0) as [->|E]; [left; exists [], s; auto|].
  destruct (N.leb_spec n (lenN s)) as [Hle|Hgt].
  - left. exists (takeN n s), (dropN n s). split; [reflexivity|].
    split; [symmetry; apply takeN_dropN_split|rewrite lenN_takeN; lia].
  - right. destruct s; eexists _, _; (split; [reflexivity|discriminate]).
Qed.

(* The data slice Decode builds is well formed and its contents are exactly the bytes just read, so
   its parse is their list-level parse, whatever the reused backing array holds beyond them. *)
Lemma decode_body_on_read env h (bodyb old : bytes) :
  let l := lenN bodyb in
  let backing := if l <=? lenN old then bodyb ++ dropN l old else bodyb in
  decode_body env h (mkSlice backing 0 l (lenN backing)) = body_spec env h bodyb.
Proof.
  cbv zeta. rewrite decode_body_refines; unfold wf_slice, contents; cbn [s_back s_off s_len s_cap].
  - f_equal. destruct (lenN bodyb <=? lenN old); [apply takeN_app|apply takeN_all; lia].
  - destruct (lenN bodyb <=? lenN old); rewrite ?lenN_app; lia.
Qed.

Lemma decode_after_header env maxlen old (h lb tail : bytes) :
  length h = 12%nat -> byte_at h 0 = magic -> length lb = 4%nat ->
  decode env maxlen old (h ++ lb ++ tail) =
  if (0 <? maxlen) && (maxlen <? get32 lb) then (Err TooLong, tail) else
  match read_full (get32 lb) tail with
  | (Ok bodyb, r) =>
      (match body_spec env h bodyb with
       | Ok m => Ok (mkObj m (if get32 lb <=? lenN (o_backing old)
                              then bodyb ++ dropN (get32 lb) (o_backing old) else bodyb))
       | Err e => Err e
       | Panic => Err RecoveredPanic
       end, r)
  | (Err e, r) => (Err e, r)
  | (Panic, r) => (Err RecoveredPanic, r)
  end.
Proof.
  intros Hh Hm Hl.
  destruct h as [|h0 h11]; [discriminate|]. cbn in Hm. subst h0.
  assert (Hh11 : lenN h11 = 11) by (unfold lenN; simpl in Hh; lia).
  unfold decode.
  change ((magic :: h11) ++ lb ++ tail) with ([magic] ++ h11 ++ lb ++ tail).
  rewrite (read_full_app 1 [magic]) by reflexivity.
  cbn [byte_at nth]. rewrite N.eqb_refl. cbn [negb].
  rewrite (read_full_app 11 h11) by exact Hh11.
  rewrite (read_full_app 4 lb) by (unfold lenN; lia).
  destruct (read_full_cases (get32 lb) tail) as [(bodyb & r & -> & _ & L)|(e & r & -> & _)]; [|reflexivity].
  rewrite <- L, decode_body_on_read. reflexivity.
Qed.

(* Decode on any stream: either it fails before or while reading the frame, with an error that does not depend on the
   receiving object, or the stream starts with one well-delimited frame and the outcome is the
   list-level parse of its body; the object only supplies the spare capacity behind the body. *)
Theorem decode_cases env maxlen stream :
  (exists e r, e <> RecoveredPanic /\ forall old, decode env maxlen old stream = (Err e, r)) \/
  (exists h lb body rest,
     stream = h ++ lb ++ body ++ rest /\ length h = 12%nat /\ byte_at h 0 = magic /\
     length lb = 4%nat /\ lenN body = get32 lb /\ (maxlen = 0 \/ get32 lb <= maxlen) /\
     forall old, decode env maxlen old stream =
       (match body_spec env h body with
        | Ok m => Ok (mkObj m (if get32 lb <=? lenN (o_backing old)
                               then body ++ dropN (get32 lb) (o_backing old) else body))
        | Err e => Err e
        | Panic => Err RecoveredPanic
        end, rest)).
Proof.
  unfold decode.
  destruct (read_full_cases 1 stream) as [(b0 & r1 & -> & -> & L0)|(e & r & -> & He)]; [|left; eauto].
  destruct (byte_at b0 0 =? magic) eqn:Em; cbn [negb]; [|left; exists BadMagic; eexists; split; [discriminate|reflexivity]].
  destruct (read_full_cases 11 r1) as [(b1 & r2 & -> & -> & L1)|(e & r & -> & He)]; [|left; eauto].
  destruct (read_full_cases 4 r2) as [(lb & r3 & -> & -> & L3)|(e & r & -> & He)]; [|left; eauto].
  destruct ((0 <? maxlen) && (maxlen <? get32 lb)) eqn:Emax; [left; exists TooLong; eexists; split; [discriminate|reflexivity]|].
  destruct (read_full_cases (get32 lb) r3) as [(body & r4 & -> & -> & L4)|(e & r & -> & He)]; [|left; eauto].
  right. exists (b0 ++ b1), lb, body, r4. rewrite <- !app_assoc.
  split; [reflexivity|]. split; [rewrite app_length; unfold lenN in *; lia|].
  split; [destruct b0; [discriminate L0|]; now apply N.eqb_eq|]. split; [unfold lenN in *; lia|].
  split; [exact L4|]. split; [lia|]. intros old. rewrite <- L4, decode_body_on_read. reflexivity.
Qed.
