(* Writers sharing one connection and the pool of frame buffers (Wire/Shared.v): while every program follows the
   discipline, a buffer that a writer holds is held by nobody else and is not in the pool (WInv), so what a Write
   puts on the stream is the frame of its writer. *)
From Coq Require Import List Arith Lia Permutation.
From RPCX Require Import Wire.Bytes Wire.Codec Wire.CodecRoundTrip Wire.EncodeProofs Wire.Shared.
Import ListNotations.
Close Scope N_scope.
Open Scope nat_scope.

Lemma updf_same {A} (f : nat -> A) k v : updf f k v k = v.
Proof. unfold updf. now rewrite Nat.eqb_refl. Qed.
Lemma updf_other {A} (f : nat -> A) k v x : x <> k -> updf f k v x = f x.
Proof. unfold updf. intros H. destruct (Nat.eqb_spec x k); congruence. Qed.

Lemma remove_nth_perm {A} {l : list A} {n b} : nth_error l n = Some b -> Permutation l (b :: remove_nth n l).
Proof.
  revert n. induction l as [|h t IH]; intros [|n] H; cbn in *; try discriminate.
  - injection H as ->. reflexivity.
  - rewrite (IH n H) at 1. apply perm_swap.
Qed.

Lemma resize_len old n : lenN (resize old n) = n.
Proof.
  unfold resize, lenN. rewrite firstn_length, app_length, repeat_length. lia.
Qed.

(* how often a thread's frame is written: for any messages, sendable or not *)
Section Writes.
Variable env : comp_env.
Variable msg : nat -> message.
Notation wstep := (wstep env msg).
Notation wrun := (wrun env msg).

Lemma wrun_invariant (P : ws -> Prop) prog0 sched :
  P (ws_init prog0) -> (forall s tp, P s -> P (wstep s tp)) -> P (wrun prog0 sched).
Proof.
  unfold wrun. intros H0 Hstep. generalize (ws_init prog0) H0.
  induction sched as [|tp sched IH]; intros s Hs; [exact Hs|]. apply IH, Hstep, Hs.
Qed.

Lemma wstep_log s t0 pick :
  rest (wstep s (t0, pick)) = match rest s t0 with [] => rest s | _ :: p => updf (rest s) t0 p end /\
  wlog (wstep s (t0, pick)) =
    match rest s t0, own s t0 with OWrite :: _, Some _ => wlog s ++ [t0] | _, _ => wlog s end.
Proof.
  unfold wstep, adv. destruct (rest s t0) as [|o p]; [split; reflexivity|].
  destruct o, (nth_error (free s) pick), (own s t0); split; reflexivity.
Qed.

Lemma writes_step s tp t :
  count_occ Nat.eq_dec (wlog (wstep s tp)) t + count_writes (rest (wstep s tp) t) <=
  count_occ Nat.eq_dec (wlog s) t + count_writes (rest s t).
Proof.
  destruct tp as [t0 pick]. destruct (wstep_log s t0 pick) as [-> ->].
  destruct (rest s t0) as [|o p] eqn:Er; [lia|].
  assert (Hlog : count_occ Nat.eq_dec (wlog s ++ [t0]) t =
                 count_occ Nat.eq_dec (wlog s) t + if Nat.eq_dec t0 t then 1 else 0)
    by (rewrite count_occ_app; cbn; destruct (Nat.eq_dec t0 t); reflexivity).
  destruct (Nat.eq_dec t0 t) as [->|Hne].
  - rewrite updf_same, Er. unfold count_writes. destruct o, (own s t); cbn; lia.
  - rewrite updf_other by auto. destruct o, (own s t0); lia.
Qed.

Theorem frames_written_at_most_programmed prog0 sched t :
  count_occ Nat.eq_dec (wlog (wrun prog0 sched)) t <= count_writes (prog0 t).
Proof.
  enough (count_occ Nat.eq_dec (wlog (wrun prog0 sched)) t + count_writes (rest (wrun prog0 sched) t)
          <= count_writes (prog0 t)) by lia.
  apply wrun_invariant; [reflexivity|]. intros s tp Hs. pose proof (writes_step s tp t). lia.
Qed.

End Writes.

Lemma frame_ok_fill env maxlen m : frame_ok env maxlen m -> hdr_ok (m_hdr m) /\ comp_ok env m.
Proof. intros (Hh & _ & Hc & _). now split. Qed.

Section Proofs.
Variable env : comp_env.
Variable msg : nat -> message.
Hypothesis frames_ok : forall t, hdr_ok (m_hdr (msg t)) /\ comp_ok env (msg t).

Notation wstep := (wstep env msg).
Notation wrun := (wrun env msg).

Definition frame (t : nat) : bytes := frame_bytes env (msg t).

Lemma fill_is_frame t old : encode_pooled env (resize old (encode_len env (msg t))) (msg t) = frame t.
Proof.
  destruct (frames_ok t) as [Hh Hc]. apply encode_pooled_frame_bytes; [assumption..|apply resize_len].
Qed.

(* what a thread holds while its mode is not 0: a buffer that has been handed out, is not in the pool and is held by
   no other such thread; in mode 2 the buffer contains the thread's frame *)
Definition holds (s : ws) (t : nat) : Prop :=
  mode s t <> 0 -> exists b, own s t = Some b /\ b < nextb s /\ ~ In b (free s) /\
    (forall x, x <> t -> mode s x <> 0 -> own s x <> Some b) /\ (mode s t = 2 -> bufs s b = frame t).

Record WInv (s : ws) : Prop := {
  W_holds : forall t, holds s t;
  W_free : NoDup (free s) /\ forall b, In b (free s) -> b < nextb s;
  W_stream : stream s = flat_map frame (wlog s);
  W_safe : forall t, safe_from (mode s t) (rest s t) = true }.

Lemma WInv_init prog0 : (forall t, safe_from 0 (prog0 t) = true) -> WInv (ws_init prog0).
Proof.
  intros H. split; simpl; [intros t Hm; now elim Hm| |reflexivity|exact H].
  split; [constructor|intros b []].
Qed.

Lemma mode_cases m o m' : next_mode m o = Some m' ->
  (m = 0 /\ o = OGet /\ m' = 1) \/ (m = 1 /\ o = OFill /\ m' = 2) \/ (m = 2 /\ o = OWrite /\ m' = 2) \/
  ((m = 1 \/ m = 2) /\ o = OPut /\ m' = 0).
Proof.
  destruct m as [|[|[|m]]]; destruct o; simpl; intros H; inversion H; subst; tauto.
Qed.

(* A step moves one thread t: its mode, what is left of its program, perhaps the buffer it owns.  The premises: what
   the step must keep of the pool and of the buffers the other threads hold, and what t holds afterwards. *)
Lemma WInv_thread s t p m' bufs' free' nextb' own' stream' wlog' :
  WInv s -> safe_from m' p = true ->
  (forall x, x <> t -> own' x = own s x) ->
  NoDup free' -> (forall c, In c free' -> c < nextb') -> nextb s <= nextb' ->
  (forall x c, x <> t -> mode s x <> 0 -> own s x = Some c -> ~ In c free' /\ bufs' c = bufs s c) ->
  (m' <> 0 -> exists b, own' t = Some b /\ b < nextb' /\ ~ In b free' /\
                (forall x, x <> t -> mode s x <> 0 -> own s x <> Some b) /\
                (m' = 2 -> bufs' b = frame t)) ->
  stream' = flat_map frame wlog' ->
  WInv (mkWs bufs' free' nextb' own' (updf (rest s) t p) stream' wlog' (updf (mode s) t m')).
Proof.
  intros [Hh _ _ Hsafe] Hs Hoth Hnd Hlt Hnb Hkeep Hnew Hstr.
  split; unfold holds; cbn [mode own rest free nextb bufs stream wlog]; [|split; assumption|assumption|].
  - intros x. destruct (Nat.eq_dec x t) as [->|Hx].
    + (* t holds what the step gives it; the others are as they were *)
      rewrite updf_same. intros Hm. destruct (Hnew Hm) as (b & Eb & Hb & Hf & Hfresh & Hfr).
      exists b. repeat split; try assumption. intros y Hy. rewrite updf_other, Hoth by exact Hy. now apply Hfresh.
    + (* another thread holds what it held, and that is not what t holds now *)
      rewrite updf_other, Hoth by exact Hx. intros Hm. destruct (Hh x Hm) as (c & Ec & Hc & _ & Hex & Hfl).
      exists c. destruct (Hkeep x c Hx Hm Ec) as [Hf ->]. repeat split; [exact Ec|lia|exact Hf| |exact Hfl].
      intros y Hy. destruct (Nat.eq_dec y t) as [->|Hyt]; [|rewrite updf_other, Hoth by exact Hyt; now apply Hex].
      rewrite updf_same. intros Hm'. destruct (Hnew Hm') as (b & -> & _ & _ & Hfresh & _).
      intros [= ->]. exact (Hfresh x Hx Hm Ec).
  - intros x. destruct (Nat.eq_dec x t) as [->|Hx]; [now rewrite !updf_same|].
    rewrite !updf_other by exact Hx. apply Hsafe.
Qed.

Lemma WInv_step s tp : WInv s -> WInv (wstep s tp).
Proof.
  intros HI. destruct tp as [t pick]. unfold wstep.
  destruct (rest s t) as [|o p] eqn:Er; [assumption|].
  pose proof (W_safe s HI t) as Hs. rewrite Er in Hs. simpl in Hs.
  destruct (next_mode (mode s t) o) as [m'|] eqn:En; [|discriminate].
  unfold adv. rewrite En.
  pose proof HI as [Hh [Hnd Hlt] Hstream _].
  assert (Hkept : forall x c, mode s x <> 0 -> own s x = Some c -> c < nextb s /\ ~ In c (free s)).
  { intros x c Hmx Ec. destruct (Hh x Hmx) as (c' & Ec' & Hc & Hf & _). split; congruence. }
  apply mode_cases in En. destruct En as [(Hm & -> & ->)|[(Hm & -> & ->)|[(Hm & -> & ->)|(Hm & -> & ->)]]].
  - (* Get hands out b and leaves the pool free' below nextb': b comes from the old pool or is the next fresh buffer,
       so nobody holds it, and the pool only shrinks *)
    assert (Hget : forall b free' nextb', NoDup free' -> (forall c, In c free' -> In c (free s) /\ c < nextb') ->
              nextb s <= nextb' -> b < nextb' -> ~ In b free' -> In b (free s) \/ b = nextb s ->
              WInv (mkWs (bufs s) free' nextb' (updf (own s) t (Some b)) (updf (rest s) t p) (stream s) (wlog s)
                         (updf (mode s) t 1))).
    { intros b free' nextb' Hnd' Hsub Hnb Hb Hbf Hfrom.
      apply WInv_thread;
        [exact HI|exact Hs| (* the others own what they owned *) intros x Hx; now apply updf_other
        |exact Hnd'| (* the pool is below nextb' *) intros c Hc; now apply Hsub|exact Hnb
        | (* what the others hold stays out of the pool, untouched *)
          intros x c _ Hmx Ec; split; [|reflexivity]; intros Hc; now apply (Hkept x c Hmx Ec), Hsub
        | (* t holds b, which nobody else holds *) | (* no write *) exact Hstream].
      intros _. exists b. rewrite updf_same. repeat split; try assumption; [|discriminate].
      intros x _ Hmx Ec. apply (Hkept x b Hmx) in Ec. destruct Hfrom as [Hin| ->]; [tauto|lia]. }
    destruct (nth_error (free s) pick) as [b|] eqn:Ep.
    + (* from the pool, which is b and what is left of it *)
      pose proof (remove_nth_perm Ep) as Hp. apply (Permutation_NoDup Hp), NoDup_cons_iff in Hnd as [Hb Hnd'].
      assert (Hsub : forall c, In c (b :: remove_nth pick (free s)) -> In c (free s))
        by (intros c; apply Permutation_in; now symmetry).
      apply Hget; [exact Hnd'|intros c Hc%(in_cons b)%Hsub; auto|lia|apply Hlt, Hsub, in_eq|exact Hb|left; apply Hsub, in_eq].
    + (* a fresh one *)
      apply Hget; [exact Hnd|intros c Hc; split; [exact Hc|apply Hlt in Hc; lia]|lia|lia|intros Hc%Hlt; lia|now right].
  - (* Fill: t's buffer, which nobody else holds, becomes the frame of t *)
    destruct (Hh t ltac:(lia)) as (b & Eo & Eb & Ef & Hfresh & _). rewrite Eo.
    apply WInv_thread; [exact HI|exact Hs|reflexivity|exact Hnd|exact Hlt|lia
      | (* the others hold other buffers *)
        intros x c Hx Hmx Ec; split; [now apply (Hkept x c Hmx Ec)|]; apply updf_other; intros ->; now apply (Hfresh x)
      | (* t holds b, filled *) | (* no write *) exact Hstream].
    intros _. exists b. repeat split; try assumption. intros _. rewrite updf_same. apply fill_is_frame.
  - (* Write: the buffer of t holds its frame, which is what the stream gains *)
    destruct (Hh t ltac:(lia)) as (b & Eo & Eb & Ef & Hfresh & Hfill). rewrite Eo.
    apply WInv_thread; [exact HI|exact Hs|reflexivity|exact Hnd|exact Hlt|lia
      | (* nothing moves *) intros x c _ Hmx Ec; split; [now apply (Hkept x c Hmx Ec)|reflexivity]
      | (* t holds b as before *) | (* the stream *) ].
    + intros _. exists b. repeat split; try assumption. intros _. exact (Hfill Hm).
    + rewrite flat_map_app. simpl. rewrite app_nil_r, Hstream, (Hfill Hm). reflexivity.
  - (* Put: the buffer of t, which nobody else holds, goes back to the pool; t holds nothing *)
    destruct (Hh t ltac:(lia)) as (b & Eo & Eb & Ef & Hfresh & _). rewrite Eo.
    apply WInv_thread; [exact HI|exact Hs|reflexivity
      | (* the pool stays duplicate-free *) now constructor
      | (* and below nextb *) intros c [<-|Hc]; [assumption|now apply Hlt] |lia
      | (* b is not what the others hold *)
        intros x c Hx Hmx Ec; split; [|reflexivity];
        intros [<-|Hc]; [now apply (Hfresh x)|now apply (Hkept x c Hmx Ec)]
      | (* t holds nothing *) intros Hz; now elim Hz | (* no write *) exact Hstream].
Qed.

Lemma WInv_run prog0 sched : (forall t, safe_from 0 (prog0 t) = true) -> WInv (wrun prog0 sched).
Proof. intros H. apply wrun_invariant; [now apply WInv_init|intros s tp; apply WInv_step]. Qed.

(* the stream is the concatenation of whole frames, one per write, in the order of the writes *)
Theorem shared_stream_is_frames prog0 sched :
  (forall t, safe_from 0 (prog0 t) = true) ->
  stream (wrun prog0 sched) = flat_map frame (wlog (wrun prog0 sched)).
Proof. intros H. apply (W_stream _ (WInv_run prog0 sched H)). Qed.

End Proofs.

(* ... and Decode applied repeatedly to that stream recovers exactly the messages sent, in the order of the writes *)
Theorem shared_stream_decodes env maxlen msg : (forall t, frame_ok env maxlen (msg t)) ->
  forall prog0 sched old fuel, (forall t, safe_from 0 (prog0 t) = true) ->
  length (wlog (wrun env msg prog0 sched)) <= fuel ->
  decode_all fuel env maxlen old (stream (wrun env msg prog0 sched)) = (map msg (wlog (wrun env msg prog0 sched)), None).
Proof.
  intros Hok prog0 sched old fuel H Hf.
  rewrite (shared_stream_is_frames env msg (fun t => frame_ok_fill env maxlen _ (Hok t))) by assumption.
  unfold frame. rewrite flat_map_concat_map, <- map_map, <- flat_map_concat_map. apply decode_all_frames.
  - apply Forall_map, Forall_forall. intros t _. apply Hok.
  - now rewrite map_length.
Qed.
