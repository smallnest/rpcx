(* The list-level spec of Wire/CodecSpec.v inverts the frame layout (sect_frame, meta_spec_cases, body_spec_roundtrip)
   and never panics (clean); msg_ok, comp_ok: the messages that round-trip. *)
From Coq Require Import List NArith Lia.
From RPCX Require Import Wire.Bytes Wire.BytesProofs Wire.Header Wire.Codec Wire.CodecSpec.
Import ListNotations.
Open Scope N_scope.

Definition U32 : N := 4294967296.

Lemma sect_frame (x rest : bytes) :
  lenN x < U32 -> sect (put32 (lenN x) ++ x ++ rest) = Ok (x, rest).
Proof.
  intros Hx. unfold sect, U32 in *.
  rewrite !lenN_app, lenN_put32.
  destruct (N.ltb_spec (4 + (lenN x + lenN rest)) 4) as [H|H]; [lia|].
  rewrite get32_put32_small by exact Hx.
  rewrite !dropN4_put32, lenN_app.
  destruct (N.ltb_spec (lenN x + lenN rest) (lenN x)) as [H'|H']; [lia|].
  rewrite takeN_app, dropN_app. reflexivity.
Qed.

Lemma sect_ok_inv rest x r :
  sect rest = Ok (x, r) ->
  exists lb, rest = lb ++ x ++ r /\ length lb = 4%nat /\ get32 lb = lenN x.
Proof.
  unfold sect. destruct (N.ltb_spec (lenN rest) 4) as [H|H]; [discriminate|].
  destruct (N.ltb_spec (lenN (dropN 4 rest)) (get32 rest)) as [H'|H']; [discriminate|].
  intros E. injection E as Ex Er. subst x r.
  exists (takeN 4 rest). split; [|split].
  - rewrite takeN_dropN_split, takeN_dropN_split. reflexivity.
  - assert (lenN (takeN 4 rest) = 4) by (rewrite lenN_takeN; lia). unfold lenN in *. lia.
  - rewrite get32_takeN4, lenN_takeN. lia.
Qed.

(* what Decode's deferred recover() would have to catch: a panic, or its trace *)
Definition clean {A} (o : outcome A) : Prop := o <> Panic /\ o <> Err RecoveredPanic.

Lemma bind_clean {A B} (x : outcome A) (f : A -> outcome B) :
  clean x -> (forall a, clean (f a)) -> clean (bind x f).
Proof.
  intros [Hp He] Hf. destruct x as [a|e|]; cbn; [apply Hf| |congruence].
  split; [discriminate|]. intros E. apply He. now injection E as ->.
Qed.

Lemma sect_clean rest : clean (sect rest).
Proof.
  unfold sect. destruct (lenN rest <? 4); [split; discriminate|].
  destruct (lenN (dropN 4 rest) <? get32 rest); split; discriminate.
Qed.

Definition kv_ok (kv : bytes * bytes) : Prop := lenN (fst kv) < U32 /\ lenN (snd kv) < U32.

Lemma enc_meta_cons k v kvs :
  enc_meta ((k, v) :: kvs) = put32 (lenN k) ++ k ++ put32 (lenN v) ++ v ++ enc_meta kvs.
Proof. unfold enc_meta. cbn [flat_map]. unfold enc_kv. rewrite <- !app_assoc. reflexivity. Qed.

Lemma meta_spec_nil fuel acc : meta_spec fuel [] acc = Ok acc.
Proof. destruct fuel; reflexivity. Qed.

(* Decode calls decodeMetadata only on a non-empty section; on an empty one it would return the same *)
Lemma meta_guard x :
  (if 0 <? lenN x then meta_spec (S (N.to_nat (lenN x))) x [] else Ok []) = meta_spec (S (N.to_nat (lenN x))) x [].
Proof. destruct x; reflexivity. Qed.

(* one round of meta_spec reads two sections, the key and the value; its combined test
   [lenN r1 <? sl || lenN r1 - sl <? 4] is the first test of the second read made early *)
Lemma meta_spec_S fuel rest acc : rest <> [] ->
  meta_spec (S fuel) rest acc =
    match sect rest with
    | Ok (k, r2) => match sect r2 with
                    | Ok (v, r) => meta_spec fuel r (acc ++ [(k, v)])
                    | _ => Err MetaKVMissing
                    end
    | _ => Err MetaKVMissing
    end.
Proof.
  intros Hne. destruct rest as [|x0 xs]; [congruence|]. cbn [meta_spec]. unfold sect.
  set (rest := x0 :: xs).
  destruct (lenN rest <? 4); [reflexivity|].
  destruct (lenN (dropN 4 rest) <? get32 rest); [reflexivity|]. rewrite (lenN_dropN (get32 rest) (dropN 4 rest)).
  destruct (lenN (dropN 4 rest) - get32 rest <? 4); [reflexivity|].
  destruct (lenN (dropN 4 (dropN (get32 rest) (dropN 4 rest))) <? get32 (dropN (get32 rest) (dropN 4 rest))); reflexivity.
Qed.

Lemma meta_spec_step fuel (k v rest : bytes) acc :
  lenN k < U32 -> lenN v < U32 ->
  meta_spec (S fuel) (put32 (lenN k) ++ k ++ put32 (lenN v) ++ v ++ rest) acc =
  meta_spec fuel rest (acc ++ [(k, v)]).
Proof.
  intros Hk Hv. rewrite meta_spec_S by discriminate. now rewrite sect_frame, sect_frame.
Qed.

Lemma meta_spec_roundtrip kvs : forall fuel acc,
  Forall kv_ok kvs -> (length kvs <= fuel)%nat ->
  meta_spec fuel (enc_meta kvs) acc = Ok (acc ++ kvs).
Proof.
  induction kvs as [|[k v] kvs IH]; intros fuel acc Hok Hf.
  - destruct fuel; rewrite app_nil_r; reflexivity.
  - inversion Hok as [|? ? [Hk Hv] Hr].
    destruct fuel as [|fuel]; [simpl in Hf; lia|].
    rewrite enc_meta_cons, meta_spec_step by assumption.
    rewrite IH by (assumption || (simpl in Hf; lia)).
    rewrite <- app_assoc. reflexivity.
Qed.

(* layout of a metadata section that decodes to kvs *)
Inductive meta_layout : list (bytes * bytes) -> bytes -> Prop :=
  | ML_nil : meta_layout [] []
  | ML_cons k v kvs rest lk lv :
      length lk = 4%nat -> get32 lk = lenN k -> length lv = 4%nat -> get32 lv = lenN v ->
      meta_layout kvs rest -> meta_layout ((k, v) :: kvs) (lk ++ k ++ lv ++ v ++ rest).

(* the three ways decodeMetadata's parse ends: with the pairs the section is laid out from, with the one error it has,
   or - only when it was given too little fuel - at the unreachable end of its loop *)
Lemma meta_spec_cases fuel : forall rest acc,
  match meta_spec fuel rest acc with
  | Ok kvs => exists kvs', kvs = acc ++ kvs' /\ meta_layout kvs' rest
  | Err e => e = MetaKVMissing
  | Panic => (fuel <= length rest)%nat
  end.
Proof.
  induction fuel as [|fuel IH]; intros rest acc;
    (destruct (list_eq_dec N.eq_dec rest []) as [->|Hne];
      [rewrite meta_spec_nil; exists []; rewrite app_nil_r; split; constructor|]).
  - destruct rest; [congruence|cbn; lia].
  - rewrite meta_spec_S by exact Hne.
    destruct (sect rest) as [[k r2]|e|] eqn:E1; [|reflexivity..].
    destruct (sect r2) as [[v r]|e|] eqn:E2; [|reflexivity..].
    apply sect_ok_inv in E1 as (lk & -> & Lk & Gk), E2 as (lv & -> & Lv & Gv).
    specialize (IH r (acc ++ [(k, v)])). destruct (meta_spec fuel r _) as [kvs|e|]; [|exact IH|rewrite !app_length; lia].
    destruct IH as (kvs' & -> & Hl). exists ((k, v) :: kvs'). split; [now rewrite <- app_assoc|now constructor].
Qed.

Lemma meta_spec_ok_inv fuel rest acc kvs :
  meta_spec fuel rest acc = Ok kvs -> exists kvs', kvs = acc ++ kvs' /\ meta_layout kvs' rest.
Proof. intros H. pose proof (meta_spec_cases fuel rest acc) as C. now rewrite H in C. Qed.

Lemma meta_spec_clean fuel rest acc : (length rest < fuel)%nat -> clean (meta_spec fuel rest acc).
Proof.
  intros Hf. pose proof (meta_spec_cases fuel rest acc) as C.
  destruct (meta_spec fuel rest acc); [split; discriminate|subst e; split; discriminate|lia].
Qed.

Definition payload_on_wire (env : comp_env) (m : message) : bytes := snd (enc_payload env m).
Definition header_on_wire (env : comp_env) (m : message) : header := fst (enc_payload env m).

(* compression round trip premise: the registered compressor of the message's type inverts *)
Definition comp_ok (env : comp_env) (m : message) : Prop :=
  CompressType (m_hdr m) = 0 \/
  exists c z, env (CompressType (m_hdr m)) = Some c /\ c_zip c (m_payload m) = Some z /\
              c_unzip c z = Some (m_payload m).

Definition msg_ok (env : comp_env) (m : message) : Prop :=
  lenN (m_path m) < U32 /\ lenN (m_meth m) < U32 /\ Forall kv_ok (m_meta m) /\
  lenN (enc_meta (m_meta m)) < U32 /\ lenN (payload_on_wire env m) < U32.

Lemma length_enc_meta kvs : (length kvs <= N.to_nat (lenN (enc_meta kvs)))%nat.
Proof.
  induction kvs as [|[k v] kvs IH]; [cbn; lia|].
  rewrite enc_meta_cons. rewrite !lenN_app, !lenN_put32. cbn [length]. lia.
Qed.

Lemma enc_meta_nil_iff kvs : lenN (enc_meta kvs) = 0 <-> kvs = [].
Proof.
  split; [|intros ->; reflexivity].
  destruct kvs as [|[k v] kvs]; [reflexivity|].
  rewrite enc_meta_cons. rewrite !lenN_app, !lenN_put32. lia.
Qed.

Lemma enc_payload_comp env m : comp_ok env m ->
  header_on_wire env m = m_hdr m /\
  unzip_spec env (m_hdr m) (payload_on_wire env m) = Ok (m_payload m).
Proof.
  unfold header_on_wire, payload_on_wire, enc_payload, unzip_spec.
  intros [H0|(c & z & Hc & Hz & Hu)].
  - rewrite H0. split; reflexivity.
  - destruct (CompressType (m_hdr m) =? 0); [cbn; split; reflexivity|].
    rewrite Hc, Hz. cbn [fst snd]. rewrite Hu. split; reflexivity.
Qed.

Theorem body_spec_roundtrip env m :
  msg_ok env m -> comp_ok env m ->
  body_spec env (m_hdr m)
    (body_of (m_path m) (m_meth m) (enc_meta (m_meta m)) (payload_on_wire env m)) = Ok m.
Proof.
  intros (Hp & Hm & Hkv & Hme & Hpl) Hc. unfold body_spec, body_of.
  rewrite sect_frame by exact Hp. cbn [bind fst snd].
  rewrite sect_frame by exact Hm. cbn [bind fst snd].
  rewrite sect_frame by exact Hme. cbn [bind fst snd].
  rewrite meta_guard, meta_spec_roundtrip by (exact Hkv || (pose proof (length_enc_meta (m_meta m)); lia)).
  cbn [bind app].
  rewrite <- (app_nil_r (payload_on_wire env m)) at 2.
  rewrite sect_frame by exact Hpl. cbn [bind fst snd].
  destruct (enc_payload_comp env m Hc) as [_ Hu]. rewrite Hu.
  destruct m; reflexivity.
Qed.

Lemma unzip_spec_clean env h raw : clean (unzip_spec env h raw).
Proof.
  unfold unzip_spec. destruct (CompressType h =? 0); [split; discriminate|].
  destruct (env (CompressType h)) as [c|]; [|split; discriminate].
  destruct (c_unzip c raw); split; discriminate.
Qed.

Lemma body_spec_clean env h body : clean (body_spec env h body).
Proof.
  unfold body_spec.
  apply bind_clean; [apply sect_clean|intros p1].
  apply bind_clean; [apply sect_clean|intros p2].
  apply bind_clean; [apply sect_clean|intros p3].
  apply bind_clean.
  { rewrite meta_guard. apply meta_spec_clean. unfold lenN. lia. }
  intros meta.
  apply bind_clean; [apply sect_clean|intros p4].
  apply bind_clean; [apply unzip_spec_clean|intros pl]. split; discriminate.
Qed.

