(* EncodeSlicePointer into a pooled buffer and WriteTo both emit frame_bytes; Decode inverts it (roundtrip_frame), also on
   a concatenation of frames (decode_all_frames). *)
From Coq Require Import List NArith Bool Lia.
From RPCX Require Import Wire.Bytes Wire.BytesProofs Wire.Header Wire.Codec Wire.CodecRoundTrip Wire.StreamProofs.
Import ListNotations.
Open Scope N_scope.

Lemma body_len sp sm meta pl :
  lenN (body_of sp sm meta pl) = (4 + lenN sp) + (4 + lenN sm) + (4 + lenN meta) + (4 + lenN pl).
Proof. unfold body_of. rewrite !lenN_app, !lenN_put32. lia. Qed.

Lemma copy_at_fits off (src buf : bytes) : off + lenN src <= lenN buf ->
  copy_at off src buf = takeN off buf ++ src ++ dropN (off + lenN src) buf.
Proof.
  intros H. apply firstn_all2.
  assert (L : lenN (takeN off buf ++ src ++ dropN (off + lenN src) buf) <= lenN buf)
    by (rewrite !lenN_app, lenN_takeN, lenN_dropN; lia).
  unfold lenN in *. lia.
Qed.

(* a buffer g whose first bytes have been overwritten by a: a copy at the end of a extends a.  The offset is a
   variable with an equation, so that the lemma rewrites EncodeSlicePointer's copies whatever form their offsets are
   written in (12, 16, 20 + spL, metaStart + 4) and the arithmetic is left to the side condition *)
Lemma copy_at_prefix off (a b g : bytes) : off = lenN a -> lenN a + lenN b <= lenN g ->
  copy_at off b (a ++ dropN (lenN a) g) = (a ++ b) ++ dropN (lenN (a ++ b)) g.
Proof.
  intros -> H. rewrite copy_at_fits by (rewrite lenN_app, lenN_dropN; lia).
  now rewrite takeN_app, <- (dropN_dropN (lenN b)), dropN_app, dropN_dropN, <- lenN_app, app_assoc.
Qed.

Lemma copy_at_0 (a g : bytes) : lenN a <= lenN g -> copy_at 0 a g = a ++ dropN (lenN a) g.
Proof. exact (copy_at_prefix 0 [] a g eq_refl). Qed.

(* EncodeSlicePointer's ten copies stand end to end from offset 0: each extends what has been written, from nothing
   to the frame, which has the length of the pooled buffer, so nothing of the buffer's old contents is left *)
Theorem encode_pooled_is_frame env (garbage : bytes) m :
  length (header_on_wire env m) = 12%nat ->
  lenN garbage = encode_len env m ->
  encode_pooled env garbage m =
    frame_of (header_on_wire env m) (m_path m) (m_meth m) (enc_meta (m_meta m)) (payload_on_wire env m).
Proof.
  unfold header_on_wire, payload_on_wire, encode_pooled, encode_len, frame_of.
  destruct (enc_payload env m) as [h pl]. cbn [fst snd]. intros Hh Hg.
  rewrite body_len in *. assert (Hh' : lenN h = 12) by (unfold lenN; lia).
  rewrite copy_at_0, !copy_at_prefix by (rewrite ?lenN_app, ?lenN_put32; lia).
  rewrite dropN_all by (rewrite Hg, ?lenN_app, ?lenN_put32; lia).
  unfold body_of. now rewrite <- !app_assoc, app_nil_r.
Qed.

Definition hdr_ok (h : header) : Prop := length h = 12%nat /\ byte_at h 0 = magic.

Definition frame_bytes env (m : message) : bytes :=
  frame_of (m_hdr m) (m_path m) (m_meth m) (enc_meta (m_meta m)) (payload_on_wire env m).

Definition frame_ok env maxlen (m : message) : Prop :=
  hdr_ok (m_hdr m) /\ msg_ok env m /\ comp_ok env m /\
  lenN (body_of (m_path m) (m_meth m) (enc_meta (m_meta m)) (payload_on_wire env m)) < U32 /\
  (maxlen = 0 \/
   lenN (body_of (m_path m) (m_meth m) (enc_meta (m_meta m)) (payload_on_wire env m)) <= maxlen).

(* WriteTo emits the same bytes when the compressor is registered and succeeds *)
Theorem encode_stream_frame_bytes env m : comp_ok env m -> encode_stream env m = (frame_bytes env m, None).
Proof.
  intros Hc. unfold encode_stream, frame_bytes, payload_on_wire, enc_payload, frame_of.
  rewrite body_len.
  destruct Hc as [H0|(c & z & Hc & Hz & Hu)].
  - now rewrite H0.
  - destruct (CompressType (m_hdr m) =? 0); [reflexivity|]. now rewrite Hc, Hz.
Qed.

Lemma encode_len_frame env m :
  encode_len env m = 16 + lenN (body_of (m_path m) (m_meth m) (enc_meta (m_meta m)) (payload_on_wire env m)).
Proof. unfold encode_len, payload_on_wire. destruct (enc_payload env m); reflexivity. Qed.

(* the premises of the round-trip theorems, which speak of encode_len, are frame_ok *)
Lemma frame_ok_of_len env maxlen m :
  hdr_ok (m_hdr m) -> msg_ok env m -> comp_ok env m ->
  encode_len env m < 16 + U32 -> (maxlen = 0 \/ encode_len env m <= 16 + maxlen) -> frame_ok env maxlen m.
Proof.
  rewrite encode_len_frame. intros Hh Hm Hc Hl Hx. repeat (split; [assumption|]). split; lia.
Qed.

Lemma encode_pooled_frame_bytes env garbage m :
  hdr_ok (m_hdr m) -> comp_ok env m -> lenN garbage = encode_len env m ->
  encode_pooled env garbage m = frame_bytes env m.
Proof.
  intros [Hl _] Hc Hg. destruct (enc_payload_comp env m Hc) as [Hhw _].
  rewrite encode_pooled_is_frame by (rewrite ?Hhw; assumption). now rewrite Hhw.
Qed.

Theorem roundtrip_frame env maxlen old m rest :
  frame_ok env maxlen m ->
  let r := decode env maxlen old (frame_bytes env m ++ rest) in
  out_msg (fst r) = Ok m /\ snd r = rest.
Proof.
  intros ([Hl Hm] & Hok & Hc & Hb & Hmax). unfold frame_bytes, frame_of. rewrite <- !app_assoc.
  rewrite decode_after_header, get32_put32_only by (assumption || reflexivity).
  set (body := body_of _ _ _ _) in *.
  assert (E : (0 <? maxlen) && (maxlen <? lenN body) = false) by lia.
  rewrite E, (read_full_app (lenN body) body rest eq_refl). unfold body.
  rewrite (body_spec_roundtrip env m Hok Hc). split; reflexivity.
Qed.

Lemma frame_bytes_nonempty env m : frame_bytes env m <> [].
Proof. unfold frame_bytes, frame_of. destruct (m_hdr m); discriminate. Qed.

Lemma decode_all_S fuel env maxlen old stream : stream <> [] ->
  decode_all (S fuel) env maxlen old stream =
  match decode env maxlen old stream with
  | (Ok o, rest) => let (ms, e) := decode_all fuel env maxlen o rest in (o_msg o :: ms, e)
  | (Err e, _) => ([], Some e)
  | (Panic, _) => ([], Some RecoveredPanic)
  end.
Proof. destruct stream; [congruence|reflexivity]. Qed.

Theorem decode_all_frames env maxlen ms : forall old fuel,
  Forall (frame_ok env maxlen) ms -> (length ms <= fuel)%nat ->
  decode_all fuel env maxlen old (flat_map (frame_bytes env) ms) = (ms, None).
Proof.
  induction ms as [|m ms IH]; intros old fuel Hok Hf.
  - destruct fuel; reflexivity.
  - inversion Hok as [|? ? Hm Hr].
    destruct fuel as [|fuel]; [simpl in Hf; lia|].
    cbn [flat_map]. rewrite decode_all_S
      by (intros E; apply app_eq_nil in E as [E _]; exact (frame_bytes_nonempty env m E)).
    destruct (roundtrip_frame env maxlen old m (flat_map (frame_bytes env) ms) Hm) as [E1 E2].
    destruct (decode env maxlen old (frame_bytes env m ++ flat_map (frame_bytes env) ms)) as [[o|e|] rest];
      cbn [fst snd out_msg] in E1, E2; try discriminate.
    injection E1 as E1. subst rest.
    rewrite IH by (assumption || (simpl in Hf; lia)). rewrite E1. reflexivity.
Qed.
