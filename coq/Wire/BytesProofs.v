(* Lengths, takeN / dropN, the big-endian fields, bytes under the bit operations of the header setters (b8), and
   checking a statement for each of the few values below a bound (below_Forall). *)
From Coq Require Import List NArith Arith Lia ZifyNat.
From RPCX Require Import Wire.Bytes.
Import ListNotations.
Open Scope N_scope.

Lemma lenN_app {A} (a b : list A) : lenN (a ++ b) = lenN a + lenN b.
Proof. unfold lenN. rewrite app_length. lia. Qed.

Lemma lenN_nil {A} : lenN (@nil A) = 0.
Proof. reflexivity. Qed.

Lemma lenN_cons {A} (x : A) l : lenN (x :: l) = 1 + lenN l.
Proof. unfold lenN. cbn [length]. lia. Qed.

Lemma lenN_length {A} (l : list A) : N.to_nat (lenN l) = length l.
Proof. unfold lenN. lia. Qed.

Lemma takeN_app (a b : bytes) : takeN (lenN a) (a ++ b) = a.
Proof.
  unfold takeN. rewrite lenN_length. rewrite firstn_app, Nat.sub_diag, firstn_all. apply app_nil_r.
Qed.

Lemma dropN_app (a b : bytes) : dropN (lenN a) (a ++ b) = b.
Proof.
  unfold dropN. rewrite lenN_length. rewrite skipn_app, Nat.sub_diag, skipn_all. reflexivity.
Qed.

Lemma takeN_app_le n (a b : bytes) : n <= lenN a -> takeN n (a ++ b) = takeN n a.
Proof.
  intros H. unfold takeN. rewrite firstn_app.
  replace (N.to_nat n - length a)%nat with O by (unfold lenN in H; lia).
  apply app_nil_r.
Qed.

Lemma dropN_app_le n (a b : bytes) : n <= lenN a -> dropN n (a ++ b) = dropN n a ++ b.
Proof.
  intros H. unfold dropN. rewrite skipn_app.
  replace (N.to_nat n - length a)%nat with O by (unfold lenN in H; lia). reflexivity.
Qed.

Lemma lenN_takeN n (l : bytes) : lenN (takeN n l) = N.min n (lenN l).
Proof. unfold lenN, takeN. rewrite firstn_length. lia. Qed.

Lemma lenN_dropN n (l : bytes) : lenN (dropN n l) = lenN l - n.
Proof. unfold lenN, dropN. rewrite skipn_length. lia. Qed.

Lemma dropN_dropN n m (l : bytes) : dropN n (dropN m l) = dropN (m + n) l.
Proof.
  unfold dropN. replace (N.to_nat (m + n)) with (N.to_nat n + N.to_nat m)%nat by lia.
  revert l. induction (N.to_nat m) as [|k IH]; intros l.
  - rewrite Nat.add_0_r. reflexivity.
  - destruct l as [|x l]; [rewrite !skipn_nil; reflexivity|].
    rewrite Nat.add_succ_r. apply IH.
Qed.

Lemma dropN_0 (l : bytes) : dropN 0 l = l.
Proof. reflexivity. Qed.

Lemma takeN_all n (l : bytes) : lenN l <= n -> takeN n l = l.
Proof. intros H. apply firstn_all2. unfold lenN in H. lia. Qed.

Lemma dropN_all n (l : bytes) : lenN l <= n -> dropN n l = [].
Proof. intros H. apply skipn_all2. unfold lenN in H. lia. Qed.

Lemma takeN_dropN_split n (l : bytes) : takeN n l ++ dropN n l = l.
Proof. apply firstn_skipn. Qed.

Lemma takeN_takeN n m (l : bytes) : takeN n (takeN m l) = takeN (N.min n m) l.
Proof.
  unfold takeN. rewrite firstn_firstn. f_equal. lia.
Qed.

Lemma dropN_takeN_comm a n (l : bytes) : dropN a (takeN n l) = takeN (n - a) (dropN a l).
Proof. unfold dropN, takeN. rewrite skipn_firstn_comm. f_equal. lia. Qed.

Lemma dropN_nil_iff n (l : bytes) : n <= lenN l -> (dropN n l = [] <-> n = lenN l).
Proof.
  intros H. split.
  - intros E. assert (lenN (dropN n l) = 0) by (rewrite E; reflexivity). rewrite lenN_dropN in *. lia.
  - intros ->. apply dropN_all. lia.
Qed.

Lemma takeN_dropN_app off len (a b : bytes) :
  off + len <= lenN a -> takeN len (dropN off (a ++ b)) = takeN len (dropN off a).
Proof.
  intros H. rewrite dropN_app_le by lia. apply takeN_app_le. rewrite lenN_dropN. lia.
Qed.

Lemma put32_length v : length (put32 v) = 4%nat.
Proof. reflexivity. Qed.

Lemma lenN_put32 v : lenN (put32 v) = 4.
Proof. reflexivity. Qed.

Lemma mod_byte_split v k n : k <> 0 -> n = k * 256 -> v mod n = (v / k) mod 256 * k + v mod k.
Proof. intros Hk ->. rewrite N.mod_mul_r by (assumption || discriminate). ring. Qed.

Lemma get32_put32 v r : get32 (put32 v ++ r) = v mod 4294967296.
Proof.
  unfold put32, get32. cbn [app].
  rewrite (mod_byte_split v 16777216 4294967296), (mod_byte_split v 65536 16777216),
    (mod_byte_split v 256 65536) by (discriminate || reflexivity).
  ring.
Qed.

Lemma get32_put32_small v r : v < 4294967296 -> get32 (put32 v ++ r) = v.
Proof. intros H. rewrite get32_put32. apply N.mod_small. exact H. Qed.

Lemma get32_put32_only v : v < 4294967296 -> get32 (put32 v) = v.
Proof. exact (get32_put32_small v []). Qed.

Lemma get32_app4 (a r : bytes) : length a = 4%nat -> get32 (a ++ r) = get32 a.
Proof.
  intros H. destruct a as [|a0 [|a1 [|a2 [|a3 [|a4 a]]]]]; try discriminate. reflexivity.
Qed.

Lemma get32_takeN4 (l : bytes) : get32 (takeN 4 l) = get32 l.
Proof.
  destruct l as [|a0 [|a1 [|a2 [|a3 l]]]]; reflexivity.
Qed.

Lemma put32_wf v : wf_bytes (put32 v).
Proof. repeat constructor; lia. Qed.

Lemma get32_bound (l : bytes) : wf_bytes l -> get32 l < 4294967296.
Proof.
  intros H.
  destruct l as [|a0 [|a1 [|a2 [|a3 l]]]]; cbn [get32]; try lia.
  inversion H as [|? ? H0 Hr0]; subst. inversion Hr0 as [|? ? H1 Hr1]; subst.
  inversion Hr1 as [|? ? H2 Hr2]; subst. inversion Hr2 as [|? ? H3 Hr3]. lia.
Qed.

Lemma upd_length i v (l : bytes) : length (upd i v l) = length l.
Proof.
  revert i. induction l as [|x l IH]; intros [|i]; cbn; auto.
Qed.

Lemma dropN4_put32 v (r : bytes) : dropN 4 (put32 v ++ r) = r.
Proof. reflexivity. Qed.

Lemma dropN4_len4 (a r : bytes) : length a = 4%nat -> dropN 4 (a ++ r) = r.
Proof.
  intros H. destruct a as [|a0 [|a1 [|a2 [|a3 [|a4 a]]]]]; try discriminate. reflexivity.
Qed.

(* b8 x = x says that x is a byte; the bit operations of the header setters keep a byte a byte *)
Lemma b8_land a : b8 a = N.land a 255.
Proof. symmetry. apply (N.land_ones a 8). Qed.

Lemma b8_lor a b : b8 a = a -> b8 b = b -> b8 (N.lor a b) = N.lor a b.
Proof. rewrite !b8_land, N.land_lor_distr_l. congruence. Qed.

Lemma b8_ldiff a b : b8 a = a -> b8 (N.ldiff a b) = N.ldiff a b.
Proof.
  rewrite !b8_land. intros H. rewrite <- H at 2. apply N.bits_inj. intros n.
  rewrite N.land_spec, !N.ldiff_spec, N.land_spec.
  destruct (N.testbit a n), (N.testbit b n), (N.testbit 255 n); reflexivity.
Qed.

Lemma b8_land_r a b : b8 b = b -> b8 (N.land a b) = N.land a b.
Proof. rewrite !b8_land. intros H. rewrite <- N.land_assoc. congruence. Qed.

Lemma b8_shl8 a k : b8 (shl8 a k) = shl8 a k.
Proof. apply b8_land_r. reflexivity. Qed.

Lemma b8_byte_at h i : wf_bytes h -> b8 (byte_at h i) = byte_at h i.
Proof.
  intros H. apply N.mod_small. unfold byte_at.
  destruct (nth_in_or_default i h 0) as [Hin| ->]; [|reflexivity].
  exact (proj1 (Forall_forall _ _) H _ Hin).
Qed.

Lemma b8_shiftr a k : b8 a = a -> b8 (N.shiftr a k) = N.shiftr a k.
Proof.
  intros H. apply N.mod_small. apply N.le_lt_trans with a; [|rewrite <- H; now apply N.mod_lt].
  rewrite N.shiftr_div_pow2. apply N.div_le_upper_bound; [now apply N.pow_nonzero|].
  rewrite <- (N.mul_1_l a) at 1. apply N.mul_le_mono_r. lia.
Qed.

Lemma set_field_read b m y : N.land (N.lor (N.ldiff b m) y) m = N.land y m.
Proof. now rewrite N.land_lor_distr_l, N.land_ldiff, N.lor_0_l. Qed.

Lemma byte_at_upd_same i v h : (i < length h)%nat -> byte_at (upd i v h) i = v.
Proof.
  revert i. induction h as [|x l IH]; intros [|i] H; cbn in *; try lia; auto. apply IH. lia.
Qed.

Lemma byte_at_upd_other i j v h : i <> j -> byte_at (upd i v h) j = byte_at h j.
Proof.
  unfold byte_at. revert i j. induction h as [|x l IH]; intros [|i] [|j] H; cbn; auto; try lia.
Qed.

Lemma skipn_upd i n v (h : bytes) : (i < n)%nat -> skipn n (upd i v h) = skipn n h.
Proof.
  revert i n. induction h as [|x h IH]; intros [|i] [|n] Hi; cbn; try lia; try reflexivity.
  apply IH. lia.
Qed.

Lemma get64_put64 s : s < 18446744073709551616 -> get64 (put64 s) = s.
Proof.
  intros Hs. unfold get64, put64. rewrite get32_put32. change (skipn 4 (put32 ?a ++ ?b)) with b.
  rewrite <- (app_nil_r (put32 (s mod _))), get32_put32, !N.mod_mod by discriminate.
  rewrite N.mod_small by (apply N.div_lt_upper_bound; [discriminate|exact Hs]).
  rewrite N.mul_comm. symmetry. apply N.div_mod. discriminate.
Qed.

(* a statement about the few values below a small bound, checked value by value *)
Definition nseq (n : N) : list N := map N.of_nat (seq 0 (N.to_nat n)).

Lemma below_Forall (P : N -> Prop) n : Forall P (nseq n) -> forall v, v < n -> P v.
Proof.
  intros HP v Hv. apply (proj1 (Forall_forall P _) HP).
  apply in_map_iff. exists (N.to_nat v). split; [lia|]. apply in_seq. lia.
Qed.

