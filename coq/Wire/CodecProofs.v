(* The slice-level decoder computes the list-level spec of Wire/CodecSpec.v on the contents of a well-formed slice. *)
From Coq Require Import NArith Bool Lia ZifyBool.
From RPCX Require Import Wire.Bytes Wire.BytesProofs Wire.Codec Wire.CodecSpec.
Open Scope N_scope.

Definition wf_slice (s : slice) : Prop :=
  s_len s <= s_cap s /\ s_off s + s_cap s <= lenN (s_back s).

Lemma lenN_contents s : wf_slice s -> lenN (contents s) = s_len s.
Proof. intros [H1 H2]. unfold contents. rewrite lenN_takeN, lenN_dropN. lia. Qed.

Lemma reslice_at s a len :
  wf_slice s -> a + len <= s_len s ->
  exists s', reslice s a (a + len) = Some s' /\ wf_slice s' /\ s_len s' = len /\
             contents s' = takeN len (dropN a (contents s)).
Proof.
  intros [Hlc Hcap] Hb. unfold reslice.
  assert (E : (a <=? a + len) && (a + len <=? s_cap s) = true) by lia. rewrite E.
  eexists. split; [reflexivity|]. unfold wf_slice, contents. cbn [s_back s_off s_len s_cap].
  replace (a + len - a) with len by lia. split; [lia|]. split; [reflexivity|].
  rewrite dropN_takeN_comm, takeN_takeN, dropN_dropN. f_equal. lia.
Qed.

Lemma be32_ok s : 4 <= s_len s -> be32 s = Some (get32 (contents s)).
Proof. intros H. unfold be32. assert (E : (4 <=? s_len s) = true) by lia. rewrite E. reflexivity. Qed.

(* binary.BigEndian.Uint32(data[n:n+4]) with four bytes left: the length field at n *)
Lemma read_len {A} data n (k : N -> outcome A) :
  wf_slice data -> n + 4 <= s_len data ->
  (s4 <- of_opt (reslice data n (n + 4)) ;; sl <- of_opt (be32 s4) ;; k sl) =
  k (get32 (dropN n (contents data))).
Proof.
  intros Hwf Hn. destruct (reslice_at data n 4 Hwf Hn) as (s4 & -> & _ & L & C). cbn [of_opt bind].
  rewrite be32_ok by lia. rewrite C, get32_takeN4. reflexivity.
Qed.

(* one length-prefixed section at offset n, read at slice level and at list level: the same outcome, if the
   continuations agree *)
Lemma section_bind {A} data n (k : slice * N -> outcome A) (k' : bytes * bytes -> outcome A) :
  wf_slice data ->
  (forall s, wf_slice s ->
     k (s, n + 4 + s_len s) = k' (contents s, dropN (n + 4 + s_len s) (contents data))) ->
  bind (section data n) k = bind (sect (dropN n (contents data))) k'.
Proof.
  intros Hwf Hk. pose proof (lenN_contents data Hwf) as HL.
  unfold sect, section. rewrite !dropN_dropN, ?N.add_assoc, !lenN_dropN, HL.
  destruct (N.ltb_spec (s_len data - n) 4) as [H4|H4]; [reflexivity|].
  rewrite read_len by (assumption || lia).
  set (sl := get32 (dropN n (contents data))).
  destruct (N.ltb_spec (s_len data - (n + 4)) sl) as [Hs|Hs]; [reflexivity|].
  destruct (reslice_at data (n + 4) sl Hwf ltac:(lia)) as (sc & -> & Wc & <- & Cc). cbn [of_opt bind].
  rewrite Hk, Cc by assumption. reflexivity.
Qed.

Lemma dec_meta_refines fuel : forall data n acc,
  wf_slice data ->
  dec_meta fuel (s_len data) data n acc = meta_spec fuel (dropN n (contents data)) acc.
Proof.
  induction fuel as [|fuel IH]; intros data n acc Hwf; pose proof (lenN_contents data Hwf) as HL;
    cbn [dec_meta meta_spec].
  (* dec_meta asks whether n < l, meta_spec whether a byte is left from n on; with none left both return acc *)
  all: destruct (N.ltb_spec n (s_len data)) as [Hlt|Hge];
    [|rewrite (dropN_all n (contents data)) by lia; reflexivity].
  all: destruct (dropN n (contents data)) as [|x0 xs] eqn:E; [apply dropN_nil_iff in E; lia|].
  - (* no fuel: both give up *)
    reflexivity.
  - (* one round: the length and bytes of the key, then of the value, and on with what follows; with every tail of
       the section written as dropN (n + ..) of its contents, the two sides make the same tests *)
    rewrite <- E. rewrite !dropN_dropN, ?N.add_assoc, !lenN_dropN, HL.
    set (l := s_len data) in *. set (M := contents data) in *.
    destruct (N.ltb_spec (l - n) 4) as [H4|H4]; [reflexivity|].
    rewrite read_len by (assumption || lia). fold M. set (sl := get32 (dropN n M)).
    destruct ((l - (n + 4) <? sl) || (l - (n + 4) - sl <? 4)) eqn:Ek; [reflexivity|].
    destruct (reslice_at data (n + 4) sl Hwf ltac:(lia)) as (ks & -> & _ & _ & Cks). cbn [of_opt bind].
    rewrite read_len by (assumption || lia). fold M. set (sl' := get32 (dropN (n + 4 + sl) M)).
    destruct (N.ltb_spec (l - (n + 4 + sl + 4)) sl') as [Hv|Hv]; [reflexivity|].
    destruct (reslice_at data (n + 4 + sl + 4) sl' Hwf ltac:(lia)) as (vs & -> & _ & _ & Cvs). cbn [of_opt bind].
    rewrite (IH data _ _ Hwf).
    rewrite Cks, Cvs. reflexivity.
Qed.

Lemma bind_ok {A B} (x : outcome A) (f : A -> outcome B) a : x = Ok a -> bind x f = f a.
Proof. intros ->. reflexivity. Qed.

Lemma bind_Ok_inv {A B} (x : outcome A) (f : A -> outcome B) b :
  bind x f = Ok b -> exists a, x = Ok a /\ f a = Ok b.
Proof. destruct x; cbn; [eauto|discriminate..]. Qed.

Lemma bind_ext {A B} (x y : outcome A) (f g : A -> outcome B) :
  x = y -> (forall a, f a = g a) -> bind x f = bind y g.
Proof. intros -> H. destruct y; cbn; auto. Qed.

Theorem decode_body_refines env h data :
  wf_slice data -> decode_body env h data = body_spec env h (contents data).
Proof.
  intros Hwf. unfold decode_body, body_spec.
  apply section_bind; [exact Hwf|]. intros s1 W1.
  apply section_bind; [exact Hwf|]. intros s2 W2.
  apply section_bind; [exact Hwf|]. intros s3 W3. cbn [fst snd].
  apply bind_ext.
  { (* the metadata section is parsed from its own slice *)
    rewrite (lenN_contents s3 W3), dec_meta_refines, dropN_0 by assumption. reflexivity. }
  intros meta. apply section_bind; [exact Hwf|]. intros s4 W4. reflexivity.
Qed.
