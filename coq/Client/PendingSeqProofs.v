(* The sequence counter on top of Client/PendingProofs.v.  t2rel t b w is what thread t knows in abstract state b,
   above all (r_fresh) while it holds a number read from the counter; Inv2: nothing was overwritten, every key in the
   table is below the counter, and every thread has such a b.  Of the first layer it needs the mutex only: whoever
   holds such a number holds the mutex, so the others neither add to the table nor advance the counter.  The first
   layer's invariant holds of the same runs (step2_cases). *)
From Coq Require Import List Arith Bool Lia.
From RPCX Require Import Client.Pending Client.PendingProofs Client.PendingSeq.
Import ListNotations.

(* b: the second discipline's state of thread t *)
Record t2rel (t : tid) (b : a2) (w : world2) : Prop := mkT2 {
  r_held : h2 b = true -> lock (base w) = Some t;
  r_check : check2 b (pc (thr (base w) t)) = true;
  r_todo : Forall (fun ep => check2 a2init (snd ep) = true) (todo (thr (base w) t));
  (* env (thr (base w) t) k: the number t read from the counter *)
  r_fresh : forall k, fresh2 b = Some k ->
            h2 b = true /\
            (forall key c, lookup (pend (base w)) key = Some c -> key < env (thr (base w) t) k) /\
            (if bumped2 b then env (thr (base w) t) k + 1 = ctr w else env (thr (base w) t) k = ctr w)
}.

Definition Inv2 (w : world2) : Prop :=
  clob w = false /\ (forall key c, lookup (pend (base w)) key = Some c -> key < ctr w) /\
  exists B, forall t, t2rel t (B t) w.

Definition ctr_after (o : pop) (n : nat) : nat := match o with PSeqInc => Datatypes.S n | _ => n end.

Lemma step2_cases t x w w' : step2 t x w = Some w' ->
  exists xx, step t xx (base w) = Some (base w') /\
  match pc (thr (base w) t) with
  | [] => ctr w' = ctr w /\ clob w' = clob w
  | o :: _ => ctr w' = ctr_after o (ctr w)
              /\ clob w' = clob w || match o with PReg k v => overwrites (base w) t k v | _ => false end
              /\ (forall k, o = PSeqRead k -> xx = ctr w)
  end.
Proof.
  unfold step2. destruct (pc (thr (base w) t)) as [|[] r];
  match goal with |- option_map _ (step t ?xx _) = _ -> _ =>
    destruct (step t xx (base w)) as [b'|] eqn:E; [|discriminate]; cbn; intros; inv_some; exists xx;
    rewrite ?orb_false_r; repeat split; auto; discriminate end.
Qed.
Arguments step2_cases {t x w w'}.

Lemma quiet_step a o : quiet o = true -> astep2 a o = Some a.
Proof. destruct o; try discriminate; reflexivity. Qed.

Lemma quiet_facts o : quiet o = true ->
  env_op o = false /\ (forall k v, o <> PReg k v) /\ forall n, ctr_after o n = n.
Proof. destruct o; try discriminate; repeat split; discriminate. Qed.

Lemma astep2_h2 b o b1 : astep2 b o = Some b1 -> h2 b1 = true -> o = PLock \/ (h2 b = true /\ lock_op o = false).
Proof.
  intros Hb H1. destruct o; cbn in Hb; exec_cases Hb; cbn in H1; auto; try discriminate; right;
    rewrite ?andb_true_iff in *; (split; [tauto|reflexivity]).
Qed.
Arguments astep2_h2 {b o b1}.

Lemma astep2_reg b k v b1 : astep2 b (PReg k v) = Some b1 -> fresh2 b = Some k /\ bumped2 b = true.
Proof.
  cbn. destruct (h2 b); [|discriminate]. destruct (fresh2 b) as [k'|]; [|discriminate]. cbn.
  destruct (Nat.eqb_spec k' k) as [->|]; [|discriminate]. destruct (bumped2 b); [auto|discriminate].
Qed.
Arguments astep2_reg {b k v b1}.

Lemma astep2_fresh b o b1 k0 : astep2 b o = Some b1 -> fresh2 b1 = Some k0 ->
  (quiet o = true /\ b1 = b) \/
  (o = PSeqRead k0 /\ b1 = mkA2 true (Some k0) false) \/
  (o = PSeqInc /\ fresh2 b = Some k0 /\ bumped2 b = false /\ b1 = mkA2 true (Some k0) true).
Proof.
  intros Hb Hf. destruct (quiet o) eqn:Hq; [left; rewrite (quiet_step _ _ Hq) in Hb; now inv_some|right].
  destruct o; try discriminate Hq; cbn in Hb; exec_cases Hb; cbn in Hf; try discriminate Hf.
  - left. now inv_some.
  - right. rewrite andb_true_iff, negb_true_iff in *. rewrite Hf. tauto.
Qed.
Arguments astep2_fresh {b o b1 k0}.

Lemma step2_pres t x w w' : Inv2 w -> step2 t x w = Some w' -> Inv2 w'.
Proof.
  intros (Hcl & HK & B & HB) Hs.
  destruct (step2_cases Hs) as (xx & Hst & Hc).
  destruct (HB t) as [L C T F].
  destruct (pc (thr (base w) t)) as [|o r] eqn:Hpc.
  - (* the next path begins *)
    destruct Hc as (Hc1 & Hc2). unfold step in Hst. rewrite Hpc in Hst.
    destruct (todo (thr (base w) t)) as [|[e p] more]; [discriminate|]. inv_some.
    destruct w' as [b' n' cl']. cbn in Hst, Hc1, Hc2 |- *. subst b' n' cl'.
    split; [exact Hcl|]. split; [exact HK|]. exists (upd B t a2init).
    intros t'. destruct (Nat.eq_dec t' t) as [->|Hne].
    + inversion T; subst. constructor; cbn; rewrite ?upd_same; auto; discriminate.
    + destruct (HB t') as [L' C' T' F'].
      constructor; cbn; rewrite ?upd_other by exact Hne; auto.
  - (* an operation *)
    destruct (step_cons Hpc Hst) as (w1 & He & Hw1). destruct Hc as (Hctr' & Hclob & Hxx).
    cbn in C. destruct (astep2 (B t) o) as [b1|] eqn:Hb; [|discriminate].
    destruct (exec_footprint He) as [Hthr _ Htd Hlock _ Henv].
    assert (Hbase : lock (base w') = lock w1 /\ pend (base w') = pend w1
                    /\ (forall t', t' <> t -> thr (base w') t' = thr (base w) t')
                    /\ env (thr (base w') t) = env (thr w1 t) /\ pc (thr (base w') t) = r
                    /\ todo (thr (base w') t) = todo (thr (base w) t)).
    { rewrite Hw1. cbn. rewrite upd_same. repeat split; auto.
      intros t' Hne. rewrite upd_other by exact Hne. auto. }
    destruct Hbase as (Hl' & Hp' & Hthr' & Henv' & Hpc' & Htd').
    assert (Hctr : ctr w <= ctr w') by (rewrite Hctr'; destruct o; cbn; lia).
    split; [|split].
    + (* no entry is overwritten *)
      rewrite Hclob, Hcl. destruct o; try reflexivity.
      destruct (F k (proj1 (astep2_reg Hb))) as (_ & F1 & _). unfold overwrites.
      destruct (lookup (pend (base w)) (env (thr (base w) t) k)) as [c'|] eqn:El; [|reflexivity].
      specialize (F1 _ _ El). lia.
    + (* every key in the table is below the counter *)
      intros key c Hl. rewrite Hp' in Hl.
      destruct (exec_pend_sub He Hl) as [Hl0|(k & v & -> & ->)]; [specialize (HK _ _ Hl0); lia|].
      destruct (astep2_reg Hb) as (Hf & Hbu).
      destruct (F k Hf) as (_ & _ & F2). rewrite Hbu in F2. lia.
    + exists (upd B t b1). intros t0. destruct (Nat.eq_dec t0 t) as [->|Hne].
      * rewrite upd_same. constructor; rewrite ?Hl', ?Hpc', ?Htd', ?Hp', ?Henv'; auto.
        -- intros H1. destruct (astep2_h2 Hb H1) as [->|(E & Hlo)]; [|rewrite (Hlock Hlo); auto].
           cbn in He. destruct (lock (base w)); now inv_some.
        -- intros k0 Hf.
           destruct (astep2_fresh Hb Hf) as [(Hq & ->)|[(-> & ->)|(-> & Hf' & Hbu & ->)]].
           ++ destruct (quiet_facts o Hq) as (Q2 & Q3 & Q4).
              destruct (F k0 Hf) as (F0 & F1 & F2). rewrite (Henv Q2), Hctr', Q4.
              split; [exact F0|split; [|exact F2]]. intros key c Hl. apply (F1 key c).
              destruct (exec_pend_sub He Hl) as [|(k & v & E & _)]; [assumption|now apply Q3 in E].
           ++ (* PSeqRead: the number is the counter *)
              rewrite Hctr', (Hxx _ eq_refl) in *. cbn in He. inv_some. cbn. rewrite !upd_same. cbn. rewrite upd_same. auto.
           ++ (* PSeqInc *)
              destruct (F k0 Hf') as (_ & F1 & F2). rewrite Hbu in F2. cbn in He. inv_some. rewrite Hctr'.
              repeat split; auto. cbn. lia.
      * rewrite upd_other by exact Hne. destruct (HB t0) as [L' C' T' F']. constructor; rewrite ?Hthr' by exact Hne; auto.
        -- intros H. rewrite Hl'. now apply (exec_lock_other He Hne), L'.
        -- (* while t0 holds a fresh number, hence the mutex, t does not: it adds nothing to the table and leaves the
              counter alone *)
           intros k Hf. destruct (F' k Hf) as (F0 & F1 & F2).
           assert (Hnh2 : h2 (B t) = false).
           { destruct (h2 (B t)); [|reflexivity]. rewrite (L' F0) in L. specialize (L eq_refl). congruence. }
           assert (Hcq : ctr w' = ctr w).
           { rewrite Hctr'. destruct o; try reflexivity. cbn in Hb. rewrite Hnh2 in Hb. discriminate. }
           rewrite Hp', Hcq. repeat split; auto. intros key c Hl. apply (F1 key c).
           destruct (exec_pend_sub He Hl) as [|(k0 & v & -> & _)]; [assumption|].
           cbn in Hb. rewrite Hnh2 in Hb. discriminate.
Qed.

Lemma run2_invariant (P : world2 -> Prop) :
  (forall t x w w', P w -> step2 t x w = Some w' -> P w') -> forall sched w, P w -> P (run2 sched w).
Proof.
  intros HP. induction sched as [|[t x] r IH]; intros w Hw; cbn; [exact Hw|].
  apply IH. destruct (step2 t x w) as [w'|] eqn:Hs; eauto.
Qed.

Lemma start2_inv progs :
  (forall t, Forall (fun ep => check2 a2init (snd ep) = true) (progs t)) -> Inv2 (start2 progs).
Proof.
  intros H2. split; [reflexivity|]. split; [intros key c; discriminate|]. exists (fun _ => a2init).
  intros t. constructor; cbn; auto; discriminate.
Qed.

(* the second discipline alone: goroutines that take their numbers from the counter, under the mutex, never overwrite
   an entry of the table, whatever else they do *)
Theorem numbered_threads_never_overwrite progs sched :
  (forall t, Forall (fun ep => check2 a2init (snd ep) = true) (progs t)) ->
  let w := run2 sched (start2 progs) in
  clob w = false /\ forall key c, lookup (pend (base w)) key = Some c -> key < ctr w.
Proof. intros H2 w. destruct (run2_invariant _ step2_pres sched _ (start2_inv progs H2)) as (Hc & HK & _). now split. Qed.

(* goroutines whose paths obey both disciplines: no table entry is ever overwritten, and everything
   Client/PendingProofs.v says about strict paths holds of the same runs *)
Theorem strict_threads_never_overwrite progs sched :
  (forall t, Forall (fun ep => check true ainit (snd ep) = true) (progs t)) ->
  (forall t, Forall (fun ep => check2 a2init (snd ep) = true) (progs t)) ->
  let w := run2 sched (start2 progs) in
  clob w = false /\ safe (base w) /\ none_stranded (base w) /\
  (forall key c, lookup (pend (base w)) key = Some c -> key < ctr w).
Proof.
  intros H1 H2 w. destruct (numbered_threads_never_overwrite progs sched H2) as (Hc & HK).
  assert (HI : Inv true (base w)).
  { apply (run2_invariant (fun w => Inv true (base w))); [|now apply start_inv].
    intros t x w0 w' HI Hs. destruct (step2_cases Hs) as (xx & Hst & _). exact (step_pres HI Hst). }
  repeat split; auto; try apply (inv_safe _ _ HI). now apply inv_none_stranded.
Qed.

Lemma check2_quiet b : forall a rest, forallb quiet b = true -> check2 a (b ++ rest) = check2 a rest.
Proof.
  induction b as [|o r IH]; intros a rest H; cbn in *; [reflexivity|].
  apply andb_true_iff in H. destruct H as (Ho & Hr). rewrite (quiet_step a o Ho). now apply IH.
Qed.

Lemma iters_check2 v k bodies its fr :
  forallb (forallb quiet) bodies = true -> iters v k bodies its ->
  forall a0, check2 a0 (its ++ fr) = check2 (mkA2 (h2 a0) None false) fr.
Proof.
  intros Hq Hi. induction Hi as [|b more Hin Hi IH]; intros a0; cbn; [reflexivity|].
  rewrite <- app_assoc. rewrite forallb_forall in Hq. rewrite (check2_quiet b _ _ (Hq b Hin)).
  exact (IH _).
Qed.

Theorem scheck2_expands sp : forall a fp, scheck2 a sp = true -> expands sp fp -> check2 a fp = true.
Proof.
  induction sp as [|s r IH]; intros a fp Hs He;
    inversion He as [|o r0 fr Hx|v k bodies r0 its fr Hit Hx]; subst; cbn in *.
  - exact Hs.
  - destruct (astep2 a o) as [a'|]; [now apply IH|discriminate].
  - apply andb_true_iff in Hs. destruct Hs as (Hq & Hr).
    rewrite (iters_check2 v k bodies its fr Hq Hit a). now apply IH.
Qed.
