(* C05, the outcome clause: all_ok (every completion fits its cause), Written and NoRaw (the one-way result only after the
   call's own write). *)
From Coq Require Import List NArith Arith Bool.
From RPCX Require Import Client.ClientSM Client.ClientProofs.
Import ListNotations.

Definition outcome_ok (s : cause * result) : Prop :=
  match fst s with
  | ByResp _ => True
  | ByCtx => snd s = RCtx
  | ByConn => snd s = RConnErr \/ snd s = RShutdown
  | ByClose => snd s = RShutdown
  | ByWrite => snd s = RWriteErr
  | ByEncode => snd s = REncErr
  | Rejected => snd s = RShutdown
  | ByOneway => snd s = ROneway
  end.
(* a property of every completion (cause, result) in the log of every call c *)
Definition logs (P : nat -> cause * result -> Prop) (cs : list call) : Prop :=
  each (fun c x => Forall (P c) (c_signals x)) cs.

Implicit Types P : nat -> cause * result -> Prop.

Lemma logs_upd P g : (forall x, c_signals (g x) = c_signals x) -> forall cs c, logs P cs -> logs P (upd_nth c g cs).
Proof. intros Hg cs c H. apply (each_upd H); [auto|]. intros x _ Hx. now rewrite Hg. Qed.

Lemma logs_add P g cz r cs c :
  (forall x, c_signals (g x) = c_signals x ++ [(cz, r)]) -> P c (cz, r) -> logs P cs -> logs P (upd_nth c g cs).
Proof.
  intros Hg Hp H. apply (each_upd H); [auto|]. intros x _ Hx. rewrite Hg. apply Forall_app. split; [exact Hx|].
  constructor; [exact Hp|constructor].
Qed.

Lemma logs_complete_at P st k cz r :
  (forall c, plookup k (pending st) = Some c -> P c (cz, r)) -> logs P (calls st) -> logs P (calls (complete_at st k cz r)).
Proof.
  intros Hp H. destruct (complete_at_cases st k cz r) as [(_ & ->)|(c & E & ->)]; [exact H|]. apply logs_add with cz r; auto.
Qed.

Lemma logs_fail_all P cz r : (forall c, P c (cz, r)) -> forall p cs, logs P cs -> logs P (fail_all p cz r cs).
Proof. intros Hp p. induction p as [|[k c] p IH]; intros cs H; [exact H|]. apply IH, logs_add with cz r; auto. Qed.

Lemma logs_In P cs c x s : logs P cs -> nth_error cs c = Some x -> In s (c_signals x) -> P c s.
Proof. intros H Hx. exact (proj1 (Forall_forall _ _) (H c x Hx) s). Qed.

Lemma logs_mono P (Q : nat -> cause * result -> Prop) cs : (forall c s, P c s -> Q c s) -> logs P cs -> logs Q cs.
Proof. intros HPQ H c x Hx. exact (Forall_impl _ (HPQ c) (H c x Hx)). Qed.

Lemma logs_init P cs : wf_init cs -> logs P cs.
Proof. intros Hw c x Hx. destruct (wf_init_nth cs c x Hw Hx) as (_ & -> & _). constructor. Qed.

Definition all_ok : list call -> Prop := logs (fun _ => outcome_ok).

Theorem Step_ok st e st' : Step st e st' -> all_ok (calls st) -> all_ok (calls st').
Proof.
  intros HS H. induction HS.
  - (* St_idle *) exact H.
  - (* St_reject *) now apply logs_add with Rejected RShutdown.
  - (* St_register *) now apply logs_upd.
  - (* St_finish *) apply logs_upd; [reflexivity|]. apply logs_complete_at; [intros _ _; destruct Hfin; reflexivity|exact H].
  - (* St_wrote *) now apply logs_upd.
  - (* St_ctx *) now apply logs_complete_at.
  - (* St_returns *) now apply logs_upd.
  - (* St_push *) exact H.
  - (* St_recv *) now apply logs_complete_at.
  - (* St_readerr *) apply logs_fail_all; [|exact H]. intros _. cbn. destruct (eof && closing st); auto.
  - (* St_close *) now apply logs_fail_all.
Qed.

Lemma ok_init cs chan : wf_init cs -> all_ok (calls (init cs chan)).
Proof. apply logs_init. Qed.

Lemma reach_ok cs chan sched : wf_init cs -> all_ok (calls (run (init cs chan) sched)).
Proof. intros Hw. apply (run_invariant (fun st => all_ok (calls st)) Step_ok), ok_init, Hw. Qed.

Theorem ok_fits cs c x cz r : all_ok cs -> nth_error cs c = Some x -> In (cz, r) (c_signals x) -> outcome_ok (cz, r).
Proof. apply logs_In. Qed.
Arguments ok_fits {cs c x cz r}.

Lemma interp_not_oneway f x : interp f x <> ROneway.
Proof.
  unfold interp. destruct (f_error f); [destruct (f_hasmeta f); discriminate|].
  destruct (c_kind x); try discriminate;
    (destruct (Nat.eqb (f_payload f) 0); [discriminate|]; destruct (negb (f_codec_ok f)); [discriminate|];
     destruct (negb (f_decodable f) || c_oneway x); discriminate).
Qed.

(* a call that was reported successful with a reply was answered by a response carrying its own sequence number, whose
   interpretation is that reply *)
Theorem success_by_own_answer p cs c x cz pl :
  Inv p cs -> all_ok cs -> nth_error cs c = Some x -> In (cz, ROk pl) (c_signals x) ->
  exists f, cz = ByResp f /\ c_seq x = Some (f_seq f) /\ f_servermsg f = false /\ interp f x = ROk pl.
Proof.
  intros Hi H Hx Hin. pose proof (ok_fits H Hx Hin) as Ho.
  destruct cz as [f| | | | | | |]; cbn in Ho; try discriminate; try (destruct Ho; discriminate).
  exists f. destruct (inv_route _ _ Hi c x f _ Hx Hin) as (A & B & C). auto.
Qed.

(* a call completed as one-way was completed by the one-way path and by nothing else *)
Theorem oneway_by_oneway_path p cs c x cz :
  Inv p cs -> all_ok cs -> nth_error cs c = Some x -> In (cz, ROneway) (c_signals x) -> cz = ByOneway.
Proof.
  intros Hi H Hx Hin. pose proof (ok_fits H Hx Hin) as Ho.
  destruct cz as [f| | | | | | |]; cbn in Ho; try discriminate; try (destruct Ho; discriminate); auto.
  destruct (inv_route _ _ Hi c x f _ Hx Hin) as (_ & _ & C). destruct (interp_not_oneway f x (eq_sym C)).
Qed.

(* a call in SWritten - the only state in which EOneway fires - has its frame in wire_out *)
Definition Written (st : state) : Prop := forall c, obs c_spc (calls st) c = Some SWritten -> In c (wire_out st).

Lemma Written_spc_to st c g s :
  (forall x, c_spc (g x) = s) -> s <> SWritten \/ In c (wire_out st) -> Written st -> Written (updc st c g).
Proof.
  intros Hg Hs H j. cbn. rewrite obs_upd_at. destruct (Nat.eqb_spec c j) as [<-|]; [|apply H].
  destruct (nth_error (calls st) c); [|discriminate]. cbn. rewrite Hg. intros [= ->]. destruct Hs; [congruence|assumption].
Qed.

Lemma Written_complete_at st k cz r : Written st -> Written (complete_at st k cz r).
Proof.
  intros H j. rewrite obs_complete_at, (complete_at_frame wire_out) by reflexivity. apply H.
Qed.

Theorem Step_written st e st' : Step st e st' -> Written st -> Written st'.
Proof.
  intros HS H. induction HS.
  - (* St_idle *) exact H.
  - (* St_reject *) apply Written_spc_to with SDone; [reflexivity|left; discriminate|exact H].
  - (* St_register *) apply Written_spc_to with SReg; [reflexivity|left; discriminate|exact H].
  - (* St_finish *) apply Written_spc_to with SDone; [reflexivity|left; discriminate|]. apply Written_complete_at, H.
  - (* St_wrote: the only way into SWritten; the frame is appended to wire_out in the same step *)
    apply Written_spc_to with (if c_oneway x then SWritten else SDone); [reflexivity|right; apply in_or_app; right; now left|].
    intros j Hj. apply in_or_app. left. apply H, Hj.
  - (* St_ctx *) apply Written_complete_at, H.
  - (* St_returns *) intros j. cbn. rewrite obs_upd by reflexivity. apply IHHS.
  - (* St_push *) exact H.
  - (* St_recv *) apply Written_complete_at, H.
  - (* St_readerr *) intros j. cbn. rewrite obs_fail_all by reflexivity. apply H.
  - (* St_close *) intros j. cbn. rewrite obs_fail_all by reflexivity. apply H.
Qed.

Lemma written_init cs chan : wf_init cs -> Written (init cs chan).
Proof. intros Hw c (x & Hx & E)%obs_inv. destruct (wf_init_nth cs c x Hw Hx) as (E' & _). congruence. Qed.

Lemma reach_written cs chan sched : wf_init cs -> Written (run (init cs chan) sched).
Proof. intros Hw. apply (run_invariant Written Step_written), written_init, Hw. Qed.

(* the one-way completion of call c does something only if c's own frame went out *)
Theorem oneway_enabled_written st c : Written st -> step st (EOneway c) <> st -> In c (wire_out st).
Proof.
  intros HW Hne. apply HW. unfold obs. cbn [step] in Hne. unfold getc in Hne.
  destruct (nth_error (calls st) c) as [x|]; [|contradiction]. cbn.
  destruct (c_seq x); [|contradiction].
  destruct (spc_eqb_spec (c_spc x) SWritten) as [E|]; [now rewrite E|contradiction].
Qed.

(* without SendRaw (whose callers choose their own numbers): the one-way result is only ever given to a call whose own
   frame went out *)
Definition Sent (st : state) : Prop := logs (fun c s => fst s = ByOneway -> In c (wire_out st)) (calls st).

Record NoRaw (st : state) : Prop := {
  nr_kind : forall c, obs c_kind (calls st) c <> Some KRaw;
  nr_below : forall c s, obs c_seq (calls st) c = Some (Some s) -> (s < next_seq st)%N;
  nr_uniq : forall c1 c2 s, obs c_seq (calls st) c1 = Some (Some s) -> obs c_seq (calls st) c2 = Some (Some s) -> c1 = c2;
  nr_sent : Sent st }.

Lemma NoRaw_same st st' :
  (forall c, obs c_kind (calls st') c = obs c_kind (calls st) c) ->
  (forall c, obs c_seq (calls st') c = obs c_seq (calls st) c) ->
  next_seq st' = next_seq st -> Sent st' -> NoRaw st -> NoRaw st'.
Proof.
  intros Hk Hs Hn Hsent [K B U S]. constructor; [intros c; rewrite Hk; apply K|intros c s; rewrite Hs, Hn; apply B| |exact Hsent].
  intros c1 c2 s. rewrite !Hs. apply U.
Qed.

Lemma NoRaw_updc st c g : (forall x, c_kind (g x) = c_kind x) -> (forall x, c_seq (g x) = c_seq x) ->
  (forall x, c_signals (g x) = c_signals x) -> NoRaw st -> NoRaw (updc st c g).
Proof.
  intros Hk Hs Hg Hn. apply (NoRaw_same st); [intros j; now apply obs_upd..|reflexivity| |exact Hn].
  apply logs_upd; [exact Hg|apply Hn].
Qed.

Lemma NoRaw_complete_at st k cz r :
  (forall c, plookup k (pending st) = Some c -> cz = ByOneway -> In c (wire_out st)) -> NoRaw st -> NoRaw (complete_at st k cz r).
Proof.
  intros Hw Hn. apply (NoRaw_same st); [intros j; now apply obs_complete_at..| | |exact Hn].
  - now apply (complete_at_frame next_seq).
  - unfold Sent. rewrite (complete_at_frame wire_out) by reflexivity. apply logs_complete_at; [exact Hw|apply Hn].
Qed.

Lemma NoRaw_swept st cl sh ra cz r : cz <> ByOneway -> NoRaw st -> NoRaw (swept st cl sh ra cz r).
Proof.
  intros Hne Hn. apply (NoRaw_same st); [intros j; now apply obs_fail_all..|reflexivity| |exact Hn].
  apply logs_fail_all; [intros j E; destruct (Hne E)|apply Hn].
Qed.

Theorem Step_noraw st e st' : Step st e st' -> Inv (pending st) (calls st) -> Written st -> NoRaw st -> NoRaw st'.
Proof.
  intros HS Hi Hw Hn. induction HS.
  - (* St_idle *) exact Hn.
  - (* St_reject *) apply (NoRaw_same st); [intros j; now apply obs_upd..|reflexivity| |exact Hn].
    apply logs_add with Rejected RShutdown; [reflexivity|discriminate|apply Hn].
  - (* St_register: the number is the counter's, above every number in use *)
    destruct Hreg as [_ _|Er].
    2:{ exfalso. apply (nr_kind _ Hn c). rewrite (obs_nth Hx). unfold is_raw in Er. destruct (c_kind x); congruence. }
    destruct Hn as [K B U S]. set (s := next_seq st) in *. constructor; cbn [calls next_seq updc set_calls entered].
    + intros j. rewrite obs_upd by reflexivity. apply K.
    + intros j s'. rewrite obs_upd_at. destruct (Nat.eqb_spec c j) as [<-|Hne].
      * rewrite Hx. intros [= <-]. apply N.lt_succ_diag_r.
      * intros H. apply N.lt_lt_succ_r, (B j s' H).
    + intros c1 c2 s'. rewrite !obs_upd_at.
      destruct (Nat.eqb_spec c c1) as [<-|N1]; destruct (Nat.eqb_spec c c2) as [<-|N2]; [reflexivity| | |apply U]; rewrite Hx.
      * intros [= <-] H2. destruct (N.lt_irrefl _ (B c2 s H2)).
      * intros H1 [= <-]. destruct (N.lt_irrefl _ (B c1 s H1)).
    + apply logs_upd; auto.
  - (* St_finish *) apply NoRaw_updc; auto. apply NoRaw_complete_at; [|exact Hn].
    intros c' El Ecz. destruct Hfin; try discriminate.
    (* the entry under s is c itself (numbers are not shared), and c's frame went out (Written) *)
    apply plookup_In in El; [|apply Hi]. destruct (inv_pend _ _ Hi _ _ El) as (x' & Hx' & Hs' & _).
    assert (c' = c) as -> by (apply (nr_uniq _ Hn c' c s); [rewrite (obs_nth Hx')|rewrite (obs_nth Hx)]; congruence).
    apply Hw. rewrite (obs_nth Hx). congruence.
  - (* St_wrote *) apply NoRaw_updc; auto. apply (NoRaw_same st); try reflexivity; [|exact Hn].
    refine (logs_mono _ _ _ _ (nr_sent _ Hn)). intros j s Hs E. apply in_or_app. left. exact (Hs E).
  - (* St_ctx *) apply NoRaw_complete_at; [discriminate|exact Hn].
  - (* St_returns *) apply NoRaw_updc; auto.
  - (* St_push *) apply (NoRaw_same st); try reflexivity; [apply Hn|exact Hn].
  - (* St_recv *) apply NoRaw_complete_at; [discriminate|exact Hn].
  - (* St_readerr *) apply NoRaw_swept; [discriminate|exact Hn].
  - (* St_close *) apply NoRaw_swept; [discriminate|exact Hn].
Qed.

Lemma noraw_init cs chan : wf_init cs -> Forall (fun x => c_kind x <> KRaw) cs -> NoRaw (init cs chan).
Proof.
  intros Hw Hk. constructor.
  - intros c (x & Hx & E)%obs_inv. exact (proj1 (Forall_forall _ _) Hk x (nth_error_In _ _ Hx) E).
  - intros c s (x & Hx & E)%obs_inv. destruct (wf_init_nth cs c x Hw Hx) as (_ & _ & E'). congruence.
  - intros c1 c2 s (x & Hx & E)%obs_inv. destruct (wf_init_nth cs c1 x Hw Hx) as (_ & _ & E'). congruence.
  - now apply logs_init.
Qed.

Lemma reach_noraw cs chan sched : wf_init cs -> Forall (fun x => c_kind x <> KRaw) cs -> NoRaw (run (init cs chan) sched).
Proof.
  intros Hw Hk.
  apply (run_invariant (fun st => Inv (pending st) (calls st) /\ Written st /\ NoRaw st)).
  - intros st e st' HS (H1 & H2 & H3). split; [|split]; [eapply Step_inv|eapply Step_written|eapply Step_noraw]; eassumption.
  - split; [|split]; [apply inv_init, Hw|apply written_init, Hw|apply noraw_init; assumption].
Qed.

(* why the premise: the one-way path completes whatever stands under its number.  A peer that answers a one-way request
   frees the number; a SendRaw caller who then chooses that number is given the one-way result of the first call, without
   its own frame having gone out (collided stays false: nothing was overwritten). *)
Example a_reused_number_inherits_the_oneway_result :
  let cs := [new_call KGo true 0; new_call KRaw false 0] in
  let st := run (init cs false) [EReg 0; EWriteOk 0; ERecv (mkFrame 1 0 false false false 0 0 true true); ERawReg 1; EOneway 0] in
  map (fun x => map fst (c_signals x)) (calls st) = [[ByResp (mkFrame 1 0 false false false 0 0 true true)]; [ByOneway]] /\
  wire_out st = [0] /\ collided st = false.
Proof. vm_compute. repeat split; reflexivity. Qed.
