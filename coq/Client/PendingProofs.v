(* Threads whose paths obey the discipline of Client/Pending.v, interleaved in any order: no call is completed twice,
   no nil call is touched, no call is touched while it sits in the table or by two threads, and (strict paths) a
   client that has shut down has an empty table whenever the mutex is free.
   The invariant (InvA) has three parts, each with its frame lemma: cinv, the calls and who owns them (a thread owns
   the call held by a variable whose abstract state is an owning one: owns); finv, the flags against the table; tvars,
   what a thread's abstract state says of its variables.  Every operation keeps it (step_ok, exec_pres).
   Last, range loops: a path whose loop bodies are checked once checks however often they run (scheck_expands). *)
From Coq Require Import List Arith Bool Lia.
From RPCX Require Import Client.Pending.
Import ListNotations.

Lemma upd_same {A} (f : nat -> A) k x : upd f k x k = x.
Proof. unfold upd. now rewrite Nat.eqb_refl. Qed.
Lemma upd_other {A} (f : nat -> A) k x k' : k' <> k -> upd f k x k' = f k'.
Proof. intros H. unfold upd. destruct (Nat.eqb_spec k' k); [contradiction|reflexivity]. Qed.

Lemma get_set_same l v s : get_ (set_ l v s) v = s.
Proof. cbn. now rewrite Nat.eqb_refl. Qed.
Lemma get_filter_other l v w : w <> v -> get_ (filter (fun p => negb (Nat.eqb (fst p) v)) l) w = get_ l w.
Proof.
  intros H. induction l as [|[u s] l IH]; cbn; [reflexivity|].
  destruct (Nat.eqb_spec u v) as [->|Huv]; cbn.
  - destruct (Nat.eqb_spec v w); [congruence|exact IH].
  - destruct (Nat.eqb_spec u w); [reflexivity|exact IH].
Qed.
Lemma get_set_other l v s w : w <> v -> get_ (set_ l v s) w = get_ l w.
Proof.
  intros H. cbn. destruct (Nat.eqb_spec v w); [congruence|]. now apply get_filter_other.
Qed.

Lemma get_setv_same a v s : get (setv a v s) v = s.
Proof. apply get_set_same. Qed.
Lemma get_setv_other a v s w : w <> v -> get (setv a v s) w = get a w.
Proof. apply get_set_other. Qed.

Lemma get_ainit v : get ainit v = VUnknown.
Proof. reflexivity. Qed.

Lemma get_unpeek l v : get_ (unpeek_all l) v = match get_ l v with VPeeked _ _ _ => VUnknown | s => s end.
Proof.
  induction l as [|[u s] l IH]; cbn; [reflexivity|].
  destruct (Nat.eqb_spec u v); [reflexivity|exact IH].
Qed.

Lemma ownedish_unpeek l v : ownedish (get_ (unpeek_all l) v) = ownedish (get_ l v).
Proof. rewrite get_unpeek. now destruct (get_ l v). Qed.

Lemma ownedish_retake l v s u : u <> v -> ownedish (get_ (set_ (unpeek_all l) v s) u) = ownedish (get_ l u).
Proof. intros H. now rewrite get_set_other, ownedish_unpeek. Qed.

Lemma get_in l v : get_ l v <> VUnknown -> exists s, In (v, s) l /\ get_ l v = s.
Proof.
  induction l as [|[u s] l IH]; cbn; [congruence|].
  destruct (Nat.eqb_spec u v) as [->|Huv]; intros H.
  - exists s. split; [now left|reflexivity].
  - destruct (IH H) as (s' & Hin & Hs). exists s'. split; [now right|exact Hs].
Qed.

Lemma noleak_get a v : noleak a = true -> ownedish (get a v) = false.
Proof.
  unfold noleak, get. induction (vars a) as [|[u s] l IH]; cbn; [reflexivity|].
  intros [Hs Hl]%andb_true_iff. destruct (Nat.eqb u v); [now apply negb_true_iff|auto].
Qed.

Lemma lookup_remove_same l k : lookup (remove l k) k = None.
Proof.
  induction l as [|[k' c] l IH]; cbn; [reflexivity|].
  destruct (Nat.eqb_spec k' k); cbn; [exact IH|].
  destruct (Nat.eqb_spec k' k); [contradiction|exact IH].
Qed.
Lemma lookup_remove_other l k k' : k' <> k -> lookup (remove l k) k' = lookup l k'.
Proof.
  intros H. induction l as [|[k0 c] l IH]; cbn; [reflexivity|].
  destruct (Nat.eqb_spec k0 k) as [->|Hk]; cbn.
  - destruct (Nat.eqb_spec k k'); [congruence|exact IH].
  - destruct (Nat.eqb_spec k0 k'); [reflexivity|exact IH].
Qed.
Lemma lookup_remove l k k' c : lookup (remove l k) k' = Some c <-> k' <> k /\ lookup l k' = Some c.
Proof.
  destruct (Nat.eq_dec k' k) as [->|Hne].
  - rewrite lookup_remove_same. split; [discriminate|intros []; contradiction].
  - rewrite lookup_remove_other by exact Hne. tauto.
Qed.

Lemma lookup_nil_all l : (forall k, lookup l k = None) -> l = [].
Proof.
  destruct l as [|[k c] l]; [reflexivity|]. intros H. specialize (H k). cbn in H. now rewrite Nat.eqb_refl in H.
Qed.

Lemma ocall_eqb_eq a b : ocall_eqb a b = true -> a = b.
Proof.
  destruct a, b; cbn; try discriminate; try reflexivity. intros H. apply Nat.eqb_eq in H. now subst.
Qed.

Definition safe (w : world) : Prop := bad w = false /\ forall c, dones w c <= 1.
Definition none_stranded (w : world) : Prop := lock w = None -> shut w || closing w = true -> pend w = [].

Definition lock_op (o : pop) : bool := match o with PLock | PUnlock => true | _ => false end.
Definition table_op (o : pop) : bool := match o with PReg _ _ | PDel _ => true | _ => false end.
Definition env_op (o : pop) : bool := match o with PNext _ _ | PSeqRead _ => true | _ => false end.

Ltac inv_some := repeat match goal with
  | H : Some _ = Some _ |- _ => injection H as H; try subst
  | H : None = Some _ |- _ => discriminate H
  end.

Ltac exec_cases He :=
  repeat match type of He with
  | match ?e with _ => _ end = _ => destruct e eqn:?; try discriminate
  | (if ?e then _ else _) = _ => destruct e eqn:?; try discriminate
  end; inv_some.

Lemma touch_cases t c w :
  (touch t c w = set_bad w /\
   (intable w c = true \/ dones w c <> 0 \/ exists t', holder w c = Some t' /\ t' <> t)) \/
  exists h', touch t c w = mkW (thr w) (lock w) (pend w) (shut w) (closing w) (next w) (dones w) (intable w) h' (bad w)
             /\ h' c = Some t /\ forall c0, c0 <> c -> h' c0 = holder w c0.
Proof.
  unfold touch. destruct (intable w c); [now auto|]. destruct (dones w c); [|now auto].
  destruct (holder w c) as [t'|] eqn:Hh.
  - destruct (Nat.eqb_spec t' t) as [->|Hne]; [right|left; eauto 6].
    exists (holder w). destruct w; cbn in *. auto.
  - right. exists (upd (holder w) c (Some t)). split; [reflexivity|]. split; [apply upd_same|intros; now apply upd_other].
Qed.

(* what exec may change besides the acting thread's variables: the only fields the frame lemmas ask about *)
Record footprint (t : tid) (o : pop) (w w1 : world) : Prop := mkFP {
  fp_others : forall t', t' <> t -> thr w1 t' = thr w t';
  fp_pc : pc (thr w1 t) = pc (thr w t);
  fp_todo : todo (thr w1 t) = todo (thr w t);
  fp_lock : lock_op o = false -> lock w1 = lock w;
  fp_pend : table_op o = false -> pend w1 = pend w;
  fp_env : env_op o = false -> env (thr w1 t) = env (thr w t) }.
Arguments fp_lock {t o w w1}.
Arguments fp_pend {t o w w1}.

Lemma footprint_shared t o w w1 :
  thr w1 = thr w -> (lock_op o = false -> lock w1 = lock w) -> (table_op o = false -> pend w1 = pend w) ->
  footprint t o w w1.
Proof. intros E Hl Hp. split; rewrite ?E; auto. Qed.

Lemma footprint_thr t o w w1 th' :
  thr w1 = upd (thr w) t th' -> pc th' = pc (thr w t) -> todo th' = todo (thr w t) ->
  (env_op o = false -> env th' = env (thr w t)) -> lock w1 = lock w -> pend w1 = pend w ->
  footprint t o w w1.
Proof.
  intros E. split; rewrite ?E, ?upd_same; auto. intros. now apply upd_other.
Qed.

(* every operation either leaves the threads alone or replaces the acting thread by one with the same pc and todo;
   done() rebuilds the world from the fields of a touched one, which is the same to footprint *)
Lemma exec_footprint t x o w w1 : exec t x o w = Some w1 -> footprint t o w w1.
Proof.
  intros He.
  assert (Ht : forall c w', thr w' = thr (touch t c w) -> lock w' = lock (touch t c w) -> pend w' = pend (touch t c w) ->
               footprint t o w w').
  { intros c w' E1 E2 E3. apply footprint_shared; rewrite ?E1, ?E2, ?E3;
      destruct (touch_cases t c w) as [(-> & _)|(h' & -> & _)]; reflexivity. }
  destruct o; cbn in He; exec_cases He;
  first [apply footprint_shared; cbn; try reflexivity; discriminate
        |eapply footprint_thr; cbn; try reflexivity; discriminate
        |eapply Ht; reflexivity].
Qed.
Arguments exec_footprint {t x o w w1}.

Lemma step_cons t x w o r w' : pc (thr w t) = o :: r -> step t x w = Some w' ->
  exists w1, exec t x o w = Some w1 /\ w' = set_pc w1 t r.
Proof.
  intros Hpc Hs. unfold step in Hs. rewrite Hpc in Hs.
  destruct (exec t x o w) as [w1|]; [|discriminate]. inv_some. eauto.
Qed.
Arguments step_cons {t x w o r w'}.

Lemma exec_pend_sub t x o w w1 key c : exec t x o w = Some w1 -> lookup (pend w1) key = Some c ->
  lookup (pend w) key = Some c \/ exists k v, o = PReg k v /\ key = env (thr w t) k.
Proof.
  intros He Hl. destruct (table_op o) eqn:Hto.
  - destruct o; try discriminate; cbn in He.
    + destruct (loc (thr w t) v); inv_some; cbn in Hl;
        [destruct (Nat.eqb_spec (env (thr w t) k) key) as [<-|]; [right; eauto|]|]; left; now apply lookup_remove in Hl.
    + inv_some. left. now apply lookup_remove in Hl.
  - left. now rewrite <- (fp_pend (exec_footprint He) Hto).
Qed.
Arguments exec_pend_sub {t x o w w1 key c}.

(* what abstract state s says of the value of variable v in thread th; h: the thread holds the mutex (a peek is only
   believed under it) *)
Definition srel (h : bool) (th : thread) (w : world) (v : var) (s : vst) : Prop :=
  match s with
  | VFresh | VOwned => loc th v <> None
  | VNil => loc th v = None
  | VPeeked k _ nn => h = true /\ loc th v = lookup (pend w) (env th k) /\ (nn = true -> loc th v <> None)
  | VMaybe | VUnknown => True
  end.

Definition tvars (t : tid) (a : ast) (w : world) : Prop :=
  (held a = true <-> lock w = Some t) /\ forall v, srel (held a) (thr w t) w v (get a v).

Definition owns (A : tid -> ast) (w : world) (t : tid) (v : var) (c : call) : Prop :=
  loc (thr w t) v = Some c /\ ownedish (get (A t) v) = true.

(* the calls: in the table, or owned by one variable of one thread, or finished with *)
Record cinv (A : tid -> ast) (w : world) : Prop := mkC {
  c_bad : bad w = false;
  c_dones : forall c, dones w c <= 1;
  c_tab : forall k c, lookup (pend w) k = Some c ->
          intable w c = true /\ dones w c = 0 /\ c < next w /\ holder w c = None;
  c_inj : forall k1 k2 c, lookup (pend w) k1 = Some c -> lookup (pend w) k2 = Some c -> k1 = k2;
  c_own : forall t v c, owns A w t v c ->
          intable w c = false /\ dones w c = 0 /\ c < next w /\ (holder w c = None \/ holder w c = Some t);
  c_uniq : forall t v t' v' c, owns A w t v c -> owns A w t' v' c -> t = t' /\ v = v';
  c_fresh : forall c, next w <= c -> dones w c = 0 /\ intable w c = false
}.

Definition fview (a : ast) (w : world) : Prop :=
  (isopen a = true -> shut w || closing w = false)
  /\ (isempty a = true -> pend w = [])
  /\ (flagset a = false -> shut w || closing w = true -> pend w = []).
Definition finv (A : tid -> ast) (w : world) : Prop :=
  match lock w with
  | None => shut w || closing w = true -> pend w = []
  | Some t => fview (A t) w
  end.

Definition InvA (strict : bool) (A : tid -> ast) (w : world) : Prop :=
  cinv A w /\ (strict = true -> finv A w) /\
  forall t, tvars t (A t) w /\ check strict (A t) (pc (thr w t)) = true
            /\ Forall (fun ep => check strict ainit (snd ep) = true) (todo (thr w t)).
Definition Inv (strict : bool) (w : world) : Prop := exists A, InvA strict A w.

(* speaks of the moving thread only; the threads that do not move: tvars_other *)
Definition step_ok (strict : bool) (t : tid) (x : nat) (o : pop) : Prop :=
  forall w w1 A a', cinv A w -> (strict = true -> finv A w) -> tvars t (A t) w ->
  astep strict (A t) o = Some a' -> exec t x o w = Some w1 ->
  cinv (upd A t a') w1 /\ (strict = true -> finv (upd A t a') w1) /\ tvars t a' w1.

Lemma cinv_shrink A w A' w1 :
  cinv A w ->
  pend w1 = pend w -> next w1 = next w -> dones w1 = dones w -> intable w1 = intable w -> holder w1 = holder w ->
  bad w1 = bad w ->
  (forall t v c, owns A' w1 t v c -> owns A w t v c) ->
  cinv A' w1.
Proof.
  intros [] E1 E2 E3 E4 E5 E6 Ho. constructor; rewrite ?E1, ?E2, ?E3, ?E4, ?E5, ?E6; eauto.
Qed.

Definition keeps (t : tid) (a a' : ast) (w w1 : world) : Prop :=
  forall v, ownedish (get a' v) = true -> ownedish (get a v) = true /\ loc (thr w1 t) v = loc (thr w t) v.

Lemma owns_upd A w w1 t a' :
  (forall t', t' <> t -> thr w1 t' = thr w t') -> keeps t (A t) a' w w1 ->
  forall t0 v c, owns (upd A t a') w1 t0 v c -> owns A w t0 v c.
Proof.
  intros Hthr Hk t0 v c [Hl Ho]. unfold owns. destruct (Nat.eq_dec t0 t) as [->|Hne].
  - rewrite upd_same in Ho. destruct (Hk v Ho) as [H1 H2]. now rewrite <- H2.
  - rewrite upd_other in Ho by exact Hne. now rewrite <- Hthr.
Qed.

Lemma cinv_upd t w w1 A a' :
  cinv A w ->
  pend w1 = pend w -> next w1 = next w -> dones w1 = dones w -> intable w1 = intable w -> holder w1 = holder w ->
  bad w1 = bad w ->
  (forall t', t' <> t -> thr w1 t' = thr w t') -> keeps t (A t) a' w w1 ->
  cinv (upd A t a') w1.
Proof. intros. eapply cinv_shrink; eauto using owns_upd. Qed.

Lemma owns_change A w w1 t a' v :
  (forall t', t' <> t -> thr w1 t' = thr w t') ->
  (forall v0, v0 <> v -> loc (thr w1 t) v0 = loc (thr w t) v0 /\ ownedish (get a' v0) = ownedish (get (A t) v0)) ->
  forall t0 v0 c, owns (upd A t a') w1 t0 v0 c ->
    (owns A w t0 v0 c /\ (t0 = t -> v0 <> v)) \/
    (t0 = t /\ v0 = v /\ loc (thr w1 t) v = Some c /\ ownedish (get a' v) = true).
Proof.
  intros Hthr Hk t0 v0 c [Hl Ho]. destruct (Nat.eq_dec t0 t) as [->|Hne].
  - rewrite upd_same in Ho. destruct (Nat.eq_dec v0 v) as [->|Hv0]; [now right|left].
    destruct (Hk v0 Hv0) as [H1 H2]. unfold owns. rewrite <- H1, <- H2. auto.
  - left. rewrite upd_other in Ho by exact Hne. unfold owns. rewrite <- Hthr by exact Hne. tauto.
Qed.

Lemma finv_frame A w A' w1 :
  finv A w -> lock w1 = lock w -> pend w1 = pend w -> shut w1 = shut w -> closing w1 = closing w ->
  (forall t, lock w = Some t -> fview (A t) w -> fview (A' t) w1) ->
  finv A' w1.
Proof.
  unfold finv. intros F E1 E2 E3 E4 Hf. rewrite E1. destruct (lock w) as [t|]; [now apply Hf|].
  now rewrite E2, E3, E4.
Qed.

Lemma finv_upd A w w1 t a' :
  finv A w -> lock w1 = lock w -> pend w1 = pend w -> shut w1 = shut w -> closing w1 = closing w ->
  (fview (A t) w -> fview a' w) -> finv (upd A t a') w1.
Proof.
  intros F E1 E2 E3 E4 Hf. apply (finv_frame _ _ _ _ F); auto. intros t0 _.
  unfold fview. rewrite E2, E3, E4. destruct (Nat.eq_dec t0 t) as [->|Hne]; [now rewrite upd_same|now rewrite upd_other].
Qed.

Lemma srel_local h th th' w v s :
  loc th' v = loc th v -> env th' = env th -> srel h th w v s -> srel h th' w v s.
Proof. intros Hl He. unfold srel. rewrite Hl, He. auto. Qed.

Lemma srel_unpeek h h' th th' w w' v l :
  loc th' v = loc th v -> srel h th w v (get_ l v) -> srel h' th' w' v (get_ (unpeek_all l) v).
Proof. intros Hl. rewrite get_unpeek. unfold srel. rewrite Hl. now destruct (get_ l v). Qed.
Arguments srel_unpeek {h h' th th' w w' v l}.

Lemma tvars_frame t' a w w1 :
  tvars t' a w -> loc (thr w1 t') = loc (thr w t') -> env (thr w1 t') = env (thr w t') ->
  (lock w1 = Some t' <-> lock w = Some t') -> (lock w = Some t' -> pend w1 = pend w) ->
  tvars t' a w1.
Proof.
  intros [Hh Hv] Hloc Henv Hlock Hpend. split; [now rewrite Hlock|].
  intros v. specialize (Hv v). unfold srel in *. rewrite Hloc, Henv.
  destruct (get a v); auto. rewrite Hpend; auto. now apply Hh.
Qed.

Lemma astep_table_held strict a o a' : astep strict a o = Some a' -> table_op o = true -> held a = true.
Proof.
  destruct o; try discriminate; cbn; [destruct (get a v); try discriminate|]; destruct (held a); auto; discriminate.
Qed.

(* the mutex as the others see it: whatever t does, it neither gives it to another thread nor takes it from one *)
Lemma exec_lock_other t x o w w1 t' : exec t x o w = Some w1 -> t' <> t -> (lock w1 = Some t' <-> lock w = Some t').
Proof.
  intros He Hne. destruct (lock_op o) eqn:Hlo; [|now rewrite (fp_lock (exec_footprint He) Hlo)].
  destruct o; try discriminate; cbn in He; destruct (lock w) as [t0|] eqn:Hl; inv_some.
  - cbn. split; congruence.
  - destruct (Nat.eqb_spec t0 t) as [->|]; inv_some; cbn; [split; congruence|now rewrite Hl].
  - cbn. now rewrite Hl.
Qed.
Arguments exec_lock_other {t x o w w1 t'}.

Lemma tvars_other strict t x o w w1 a a' t' b :
  t' <> t -> tvars t a w -> astep strict a o = Some a' -> exec t x o w = Some w1 ->
  tvars t' b w -> tvars t' b w1.
Proof.
  intros Hne [Hh _] Ha He Tb.
  destruct (exec_footprint He) as [Hthr _ _ _ Hpend _].
  apply tvars_frame with (w := w); auto using (exec_lock_other He); try now rewrite Hthr.
  intros Hl. apply Hpend. destruct (table_op o) eqn:Hto; [|reflexivity].
  apply (astep_table_held _ _ _ _ Ha), Hh in Hto. congruence.
Qed.
Arguments tvars_other {strict t x o w w1 a a' t' b}.

Definition vacate (w : world) (kv : nat) : call -> bool :=
  match lookup (pend w) kv with Some c' => upd (intable w) c' false | None => intable w end.

Lemma vacate_false w kv c : intable w c = false -> vacate w kv c = false.
Proof.
  intros H. unfold vacate. destruct (lookup (pend w) kv) as [c'|]; [|exact H].
  destruct (Nat.eq_dec c c') as [->|Hne]; [apply upd_same|now rewrite upd_other].
Qed.
Lemma vacate_other w kv k0 c0 :
  (forall k1 k2 c, lookup (pend w) k1 = Some c -> lookup (pend w) k2 = Some c -> k1 = k2) ->
  lookup (pend w) k0 = Some c0 -> k0 <> kv -> vacate w kv c0 = intable w c0.
Proof.
  intros Hinj Hl Hne. unfold vacate. destruct (lookup (pend w) kv) as [c'|] eqn:E; [|reflexivity].
  rewrite upd_other; [reflexivity|]. intros ->. apply Hne. eapply Hinj; eauto.
Qed.
Lemma vacate_same w kv c' : lookup (pend w) kv = Some c' -> vacate w kv c' = false.
Proof. intros H. unfold vacate. rewrite H. apply upd_same. Qed.

Lemma tvars_retake t a w w1 v s io fs ie r m :
  tvars t a w -> held a = true -> thr w1 = thr w -> lock w1 = lock w -> srel true (thr w t) w1 v s ->
  tvars t (mkA true io fs ie (set_ (unpeek_all (vars a)) v s) r m) w1.
Proof.
  intros [Hh Hv] Hheld Et El Hs. split; [cbn; rewrite El; tauto|].
  intros v0. unfold get. cbn [held vars]. rewrite Et. destruct (Nat.eq_dec v0 v) as [->|Hne].
  - now rewrite get_set_same.
  - rewrite get_set_other by exact Hne. exact (srel_unpeek eq_refl (Hv v0)).
Qed.

Lemma astep_del strict a k a' : astep strict a (PDel k) = Some a' ->
  held a = true /\ exists v same nn, get a v = VPeeked k same nn /\
  a' = mkA true (isopen a) (flagset a) (isempty a) (set_ (unpeek_all (vars a)) v (if nn then VOwned else VMaybe))
           (regs a) (mine a).
Proof.
  cbn. destruct (held a); [|discriminate]. destruct (find _ (vars a)) as [[v s0]|] eqn:Hf; [|discriminate].
  destruct (get a v) eqn:Hg; try discriminate.
  apply find_some in Hf. destruct Hf as (_ & Hp). cbn in Hp. rewrite Hg in Hp. cbn in Hp. apply Nat.eqb_eq in Hp. subst k0.
  match goal with |- (if ?c then _ else _) = _ -> _ => destruct c; [|discriminate] end. intros. inv_some. eauto 7.
Qed.

Lemma del_pres strict t x k : step_ok strict t x (PDel k).
Proof.
  intros w w0 A a0 G F [Hh Hv] Ha He.
  destruct (astep_del _ _ _ _ Ha) as (Hheld & v & same & nn & Hget & ->). cbn in He. inv_some.
  fold (vacate w (env (thr w t) k)).
  set (kv := env (thr w t) k). set (a' := mkA _ _ _ _ _ _ _). set (w1 := mkW _ _ _ _ _ _ _ _ _ _).
  pose proof (proj1 Hh Hheld) as Hlock.
  pose proof (Hv v) as Hs. rewrite Hget in Hs. destruct Hs as (_ & Hlocv & Hnn). fold kv in Hlocv.
  (* the owners afterwards: those before, and v for what stood under kv *)
  assert (Hown : forall t0 v0 c, owns (upd A t a') w1 t0 v0 c ->
            owns A w t0 v0 c \/ (t0 = t /\ v0 = v /\ lookup (pend w) kv = Some c)).
  { intros t0 v0 c [(Hb & _)|(-> & -> & Hl & _)]%(owns_change A w w1 t a' v); auto.
    - right. now rewrite <- Hlocv.
    - intros u Hu. split; [reflexivity|]. exact (ownedish_retake _ _ _ _ Hu). }
  split; [|split].
  - constructor; cbn [bad dones pend intable next holder w1]; try apply G.
    + intros k0 c0 (Hk & Hl)%lookup_remove. rewrite (vacate_other _ _ _ _ (c_inj _ _ G) Hl Hk). now apply (c_tab _ _ G k0).
    + intros k1 k2 c0 (_ & L1)%lookup_remove (_ & L2)%lookup_remove. eapply c_inj; eauto.
    + intros t0 v0 c [Ho|(-> & -> & E)]%Hown.
      * destruct (c_own _ _ G _ _ _ Ho) as (Q1 & Q). auto using vacate_false.
      * destruct (c_tab _ _ G _ _ E) as (_ & T2 & T3 & ->). auto using vacate_same.
    + intros t0 v0 t1 v1 c [H0|(-> & -> & E0)]%Hown [H1|(-> & -> & E1)]%Hown; auto.
      * eapply c_uniq; eauto.
      * apply (c_own _ _ G) in H0. apply (c_tab _ _ G) in E1. destruct H0, E1. congruence.
      * apply (c_own _ _ G) in H1. apply (c_tab _ _ G) in E0. destruct H1, E0. congruence.
    + intros c Hle. destruct (c_fresh _ _ G c Hle). auto using vacate_false.
  - intros Hs. specialize (F Hs). revert F.
    unfold finv. cbn [lock w1]. rewrite Hlock, upd_same. intros (J1 & J2 & J3). unfold fview. cbn.
    repeat split; auto; intros; [rewrite J2|rewrite J3]; auto.
  - apply tvars_retake with (w := w); auto. now split. destruct nn; cbn; auto.
Qed.

Lemma astep_reg strict a k v a' : astep strict a (PReg k v) = Some a' ->
  get a v = VFresh /\ held a = true /\ (strict = true -> isopen a = true) /\
  a' = mkA true (isopen a) (flagset a) false (set_ (unpeek_all (vars a)) v VUnknown) (k :: regs a) (mine a).
Proof.
  cbn. destruct (get a v); try discriminate. destruct (held a); [|discriminate]. cbn.
  destruct (negb strict || isopen a) eqn:Hc; [|discriminate]. intros. inv_some. repeat split; auto.
  intros ->. exact Hc.
Qed.

Lemma reg_pres strict t x k v : step_ok strict t x (PReg k v).
Proof.
  intros w w0 A a0 G F [Hh Hv] Ha He.
  destruct (astep_reg _ _ _ _ _ Ha) as (Hget & Hheld & Hopen & ->).
  pose proof (Hv v) as Hs. rewrite Hget in Hs. cbn in Hs, He.
  destruct (loc (thr w t) v) as [c|] eqn:Hloc; [|contradiction]. inv_some.
  change (match lookup (pend w) (env (thr w t) k) with Some c' => _ | None => _ end) with (vacate w (env (thr w t) k)).
  set (kv := env (thr w t) k). set (a' := mkA _ _ _ _ _ _ _). set (w1 := mkW _ _ _ _ _ _ _ _ _ _).
  pose proof (proj1 Hh Hheld) as Hlock.
  assert (Hc : owns A w t v c) by (split; [exact Hloc|now rewrite Hget]).
  destruct (c_own _ _ G _ _ _ Hc) as (C1 & C2 & C3 & _).
  (* the owners afterwards: those before, but for v *)
  assert (Hown : forall t0 v0 c0, owns (upd A t a') w1 t0 v0 c0 -> owns A w t0 v0 c0 /\ c0 <> c).
  { intros t0 v0 c0 [(Hb & Hvv)|(_ & _ & _ & Ho)]%(owns_change A w w1 t a' v); auto.
    - split; [exact Hb|]. intros ->. destruct (c_uniq _ _ G _ _ _ _ _ Hb Hc) as [-> ->]. now apply Hvv.
    - unfold get, a' in Ho. cbn [vars] in Ho. now rewrite get_set_same in Ho.
    - intros u Hu. split; [reflexivity|]. exact (ownedish_retake _ _ _ _ Hu). }
  assert (Hlk : forall k0 c0, lookup (pend w1) k0 = Some c0 ->
            (k0 = kv /\ c0 = c) \/ (k0 <> kv /\ c0 <> c /\ lookup (pend w) k0 = Some c0)).
  { intros k0 c0. cbn. destruct (Nat.eqb_spec kv k0) as [<-|Hk]; [intros; inv_some; auto|].
    intros (_ & Hl)%lookup_remove. right. repeat split; auto. intros ->.
    destruct (c_tab _ _ G _ _ Hl). congruence. }
  split; [|split].
  - constructor; cbn [bad dones intable next holder w1]; try apply G.
    + intros k0 c0 [(-> & ->)|(Hk & Hne & Hl)]%Hlk; rewrite ?upd_same, ?upd_other by exact Hne; auto.
      rewrite (vacate_other _ _ _ _ (c_inj _ _ G) Hl Hk). now apply (c_tab _ _ G k0).
    + intros k1 k2 c0 [(-> & ->)|(Hk1 & Hne1 & L1)]%Hlk [(-> & E)|(Hk2 & Hne2 & L2)]%Hlk; try congruence.
      eapply c_inj; eauto.
    + intros t0 v0 c0 (Ho & Hne)%Hown. rewrite !upd_other by exact Hne.
      destruct (c_own _ _ G _ _ _ Ho) as (Q1 & Q). auto using vacate_false.
    + intros t0 v0 t1 v1 c0 (H0 & _)%Hown (H1 & _)%Hown. eapply c_uniq; eauto.
    + intros c0 Hle. assert (c0 <> c) by lia. rewrite upd_other by assumption.
      destruct (c_fresh _ _ G c0 Hle). auto using vacate_false.
  - intros Hst. specialize (F Hst). specialize (Hopen Hst). revert Hopen F.
    unfold finv. cbn [lock w1]. rewrite Hlock, upd_same. intros Hopen (J1 & _). unfold fview. cbn.
    repeat split; auto; try discriminate. intros _ Hfl. rewrite (J1 Hopen) in Hfl. discriminate.
  - apply tvars_retake with (w := w); auto. now split. exact I.
Qed.

Lemma astep_touch strict a v a' (fin : bool) :
  astep strict a (if fin then PDone v else PWrite v) = Some a' ->
  a' = (if fin then setv a v VUnknown else a) /\ (get a v = VFresh \/ get a v = VOwned).
Proof. destruct fin; cbn; destruct (get a v); intros; inv_some; auto. Qed.

Lemma touch_pres strict t x v (fin : bool) : step_ok strict t x (if fin then PDone v else PWrite v).
Proof.
  intros w w1 A a0 G F [Hh Hv] Ha He. destruct (astep_touch _ _ _ _ _ Ha) as (-> & Hg).
  (* the thread owns what v holds, so touch goes well *)
  assert (Hc : exists c, owns A w t v c).
  { specialize (Hv v). unfold owns. destruct Hg as [Hg|Hg]; rewrite Hg in *; cbn in Hv;
      (destruct (loc (thr w t) v) as [c|]; [eauto|contradiction]). }
  destruct Hc as (c & Hc). destruct (c_own _ _ G _ _ _ Hc) as (C1 & C2 & C3 & C4).
  destruct (touch_cases t c w) as [(_ & [E|[E|(t' & E & Hne)]])|(h' & Ht & Hh1 & Hh2)];
    [congruence|contradiction|destruct C4; congruence|].
  assert (Hw1 : w1 = mkW (thr w) (lock w) (pend w) (shut w) (closing w) (next w)
                         (if fin then upd (dones w) c (Datatypes.S (dones w c)) else dones w) (intable w) h' (bad w)).
  { destruct fin; cbn in He; rewrite (proj1 Hc), Ht in He; cbn in He; now inv_some. }
  subst w1. set (a' := if fin then _ else _). set (w1 := mkW _ _ _ _ _ _ _ _ _ _).
  assert (Hown : forall t0 v0 c0, owns (upd A t a') w1 t0 v0 c0 ->
            owns A w t0 v0 c0 /\ (c0 = c -> t0 = t /\ fin = false)).
  { intros t0 v0 c0 Ho.
    assert (Hb : owns A w t0 v0 c0 /\ (t0 = t -> v0 = v -> fin = false)).
    { destruct (owns_change A w w1 t a' v) with (t0 := t0) (v0 := v0) (c := c0) as [(Hb & Hvv)|(-> & -> & Hl & Hoo)]; auto.
      - intros u Hu. split; [reflexivity|]. unfold a'. destruct fin; [now rewrite get_setv_other|reflexivity].
      - split; [exact Hb|]. intros E1 E2. now apply Hvv in E2.
      - unfold a' in Hoo. destruct fin; [now rewrite get_setv_same in Hoo|]. split; [now split|auto]. }
    destruct Hb as (Hb & Hvv). split; [exact Hb|]. intros ->.
    destruct (c_uniq _ _ G _ _ _ _ _ Hb Hc) as [-> ->]. auto. }
  split; [|split].
  - constructor; cbn [bad dones pend intable next holder w1]; try apply G.
    + intros c0. destruct fin; [|apply G]. unfold upd. destruct (Nat.eqb c0 c); [lia|apply G].
    + intros k0 c0 Hl. destruct (c_tab _ _ G _ _ Hl) as (T1 & T2 & T3 & T4).
      assert (Hne : c0 <> c) by congruence. rewrite Hh2 by exact Hne. destruct fin; rewrite ?upd_other; auto.
    + intros t0 v0 c0 (Ho & Hcc)%Hown. destruct (c_own _ _ G _ _ _ Ho) as (Q1 & Q2 & Q3 & Q4).
      destruct (Nat.eq_dec c0 c) as [->|Hne].
      * destruct (Hcc eq_refl) as [-> ->]. auto.
      * rewrite Hh2 by exact Hne. destruct fin; rewrite ?upd_other; auto.
    + intros t0 v0 t1 v1 c0 (H0 & _)%Hown (H1 & _)%Hown. eapply c_uniq; eauto.
    + intros c0 Hle. destruct (c_fresh _ _ G c0 Hle). destruct fin; rewrite ?upd_other; auto. lia.
  - intros Hs. apply finv_upd with (w := w); auto. now destruct fin.
  - split; [unfold a'; now destruct fin|]. intros v0. specialize (Hv v0). unfold a'. destruct fin; [|exact Hv].
    destruct (Nat.eq_dec v0 v) as [->|Hv0]; [now rewrite get_setv_same|now rewrite get_setv_other].
Qed.

Lemma new_pres strict t x v : step_ok strict t x (PNew v).
Proof.
  intros w w0 A a0 G F [Hh Hv] Ha He. cbn in Ha, He. destruct (free (A t) v) eqn:Hfree; [|discriminate]. inv_some.
  set (c := next w). set (a' := mkA _ _ _ _ _ _ _). set (w1 := mkW _ _ _ _ _ _ _ _ _ _).
  assert (Hown : forall t0 v0 c0, owns (upd A t a') w1 t0 v0 c0 ->
            (owns A w t0 v0 c0 /\ c0 <> c) \/ (t0 = t /\ v0 = v /\ c0 = c)).
  { assert (Hold : forall t0 v0 c0, owns A w t0 v0 c0 -> owns A w t0 v0 c0 /\ c0 <> c).
    { intros t0 v0 c0 Ho. split; [exact Ho|]. destruct (c_own _ _ G _ _ _ Ho) as (_ & _ & Hlt & _). unfold c. lia. }
    intros t0 v0 c0 [(Hb & _)|(-> & -> & Hl & _)]%(owns_change A w w1 t a' v); [left; now apply Hold|right| |].
    - cbn in Hl. rewrite !upd_same in Hl. cbn in Hl. rewrite upd_same in Hl. inv_some. auto.
    - intros t' Hne. cbn. now rewrite upd_other.
    - intros u Hu. split; [cbn; rewrite upd_same; cbn; now rewrite upd_other|].
      unfold get, a'. cbn [vars]. now rewrite get_set_other. }
  split; [|split].
  - constructor; cbn [bad dones pend intable next holder w1]; try apply G.
    + intros k0 c0 Hl. destruct (c_tab _ _ G _ _ Hl) as (T1 & T2 & T3 & T4).
      rewrite upd_other by (unfold c; lia). auto with arith.
    + intros t0 v0 c0 [(Ho & Hne)|(-> & -> & ->)]%Hown.
      * rewrite upd_other by exact Hne. destruct (c_own _ _ G _ _ _ Ho) as (Q1 & Q2 & Q3 & Q4). auto with arith.
      * rewrite upd_same. destruct (c_fresh _ _ G c (le_n _)). auto.
    + intros t0 v0 t1 v1 c0 [(H0 & N0)|(-> & -> & ->)]%Hown [(H1 & N1)|(-> & -> & E)]%Hown; try congruence; auto.
      eapply c_uniq; eauto.
    + intros c0 Hle. apply (c_fresh _ _ G). unfold c in *. lia.
  - intros Hs. apply finv_upd with (w := w); auto.
  - split; [exact Hh|]. intros v0. unfold get. cbn [held vars a' thr w1]. rewrite upd_same.
    destruct (Nat.eq_dec v0 v) as [->|Hv0].
    + rewrite get_set_same. cbn. rewrite upd_same. discriminate.
    + rewrite get_set_other by exact Hv0. apply srel_local with (th := thr w t); [cbn; now rewrite upd_other|reflexivity|].
      apply Hv.
Qed.

Record shared_eq (t : tid) (w w1 : world) : Prop := mkSE {
  se_lock : lock w1 = lock w; se_pend : pend w1 = pend w; se_shut : shut w1 = shut w;
  se_closing : closing w1 = closing w; se_next : next w1 = next w; se_dones : dones w1 = dones w;
  se_intable : intable w1 = intable w; se_holder : holder w1 = holder w; se_bad : bad w1 = bad w;
  se_thr : forall t', t' <> t -> thr w1 t' = thr w t'
}.

Lemma shared_eq_refl t w : shared_eq t w w.
Proof. constructor; reflexivity. Qed.
Lemma shared_eq_set_thr w t th : shared_eq t w (set_thr w t th).
Proof. constructor; try reflexivity. intros t' Hne. cbn. now rewrite upd_other. Qed.

Lemma local_pres strict t w w1 A a' :
  cinv A w -> (strict = true -> finv A w) -> tvars t (A t) w -> shared_eq t w w1 ->
  held a' = held (A t) -> (fview (A t) w -> fview a' w) ->
  (forall v, srel (held a') (thr w1 t) w v (get a' v)) -> keeps t (A t) a' w w1 ->
  cinv (upd A t a') w1 /\ (strict = true -> finv (upd A t a') w1) /\ tvars t a' w1.
Proof.
  intros G F [Hh Hv] [] Hheld Hf Hvars Hk. split; [|split].
  - apply cinv_upd with (w := w); auto.
  - intros Hs. apply finv_upd with (w := w); auto.
  - split; [now rewrite Hheld, se_lock0|]. intros v. specialize (Hvars v). unfold srel in *. now rewrite se_pend0.
Qed.

(* r, m: regs and mine are the discipline's own bookkeeping, which the invariant does not read *)
Lemma var_pres strict t w w1 A v s r m :
  cinv A w -> (strict = true -> finv A w) -> tvars t (A t) w -> shared_eq t w w1 ->
  env (thr w1 t) = env (thr w t) -> (forall v0, v0 <> v -> loc (thr w1 t) v0 = loc (thr w t) v0) ->
  srel (held (A t)) (thr w1 t) w v s ->
  (ownedish s = true -> ownedish (get (A t) v) = true /\ loc (thr w1 t) v = loc (thr w t) v) ->
  let a := A t in
  let a' := mkA (held a) (isopen a) (flagset a) (isempty a) (set_ (vars a) v s) r m in
  cinv (upd A t a') w1 /\ (strict = true -> finv (upd A t a') w1) /\ tvars t a' w1.
Proof.
  intros G F TV SE Henv Hloc Hs Hown a a'.
  apply local_pres with (w := w); auto.
  - intros v0. unfold get. cbn [vars held a']. destruct (Nat.eq_dec v0 v) as [->|Hne].
    + now rewrite get_set_same.
    + rewrite get_set_other by exact Hne. apply srel_local with (th := thr w t); auto. apply TV.
  - intros v0. unfold get. cbn [vars a']. destruct (Nat.eq_dec v0 v) as [->|Hne].
    + now rewrite get_set_same.
    + rewrite get_set_other by exact Hne. auto.
Qed.

Lemma noop_pres strict t w A :
  cinv A w -> (strict = true -> finv A w) -> tvars t (A t) w ->
  cinv (upd A t (A t)) w /\ (strict = true -> finv (upd A t (A t)) w) /\ tvars t (A t) w.
Proof.
  intros G F TV. apply local_pres with (w := w); auto using shared_eq_refl. - apply TV. - intros v; auto.
Qed.

Lemma assign_pres strict t w A v s oc r m :
  cinv A w -> (strict = true -> finv A w) -> tvars t (A t) w -> ownedish s = false ->
  srel (held (A t)) (set_loc (thr w t) v oc) w v s ->
  let a := A t in
  let a' := mkA (held a) (isopen a) (flagset a) (isempty a) (set_ (vars a) v s) r m in
  let w1 := set_thr w t (set_loc (thr w t) v oc) in
  cinv (upd A t a') w1 /\ (strict = true -> finv (upd A t a') w1) /\ tvars t a' w1.
Proof.
  intros G F TV Hno Hs a a' w1.
  assert (Hthr : thr w1 t = set_loc (thr w t) v oc) by (cbn; apply upd_same).
  apply var_pres with (w := w); rewrite ?Hthr; auto.
  - apply shared_eq_set_thr.
  - intros v0 Hne. cbn. now rewrite upd_other.
  - congruence.
Qed.

Lemma astep_isnil strict a v a' : astep strict a (PIsNil v) = Some a' -> a' = setv a v VNil.
Proof. cbn. destruct (get a v) as [| |? ? []| | |]; intros; inv_some; auto. Qed.

Lemma astep_nonnil strict a v a' : astep strict a (PNonNil v) = Some a' ->
  a' = a \/ (get a v = VMaybe /\ a' = setv a v VOwned)
  \/ exists k s nn, get a v = VPeeked k s nn /\ a' = setv a v (VPeeked k s true).
Proof. cbn. destruct (get a v) eqn:Hg; intros; inv_some; eauto 7. Qed.

Lemma astep_same strict a v w a' : astep strict a (PSame v w) = Some a' ->
  a' = a \/ exists u k s nn, get a u = VPeeked k s nn /\ a' = setv a u (VPeeked k true nn).
Proof.
  (* whichever of the two is a peek is compared with the other: v first *)
  cbn. destruct (get a v) as [| |k s nn| | |] eqn:Hg;
    [| |destruct (is_mine a w); intros; inv_some; [right; eauto 6|now left]| | |];
    (destruct (get a w) as [| |k s nn| | |] eqn:Hg0;
       [| |destruct (is_mine a v); intros; inv_some; [right; eauto 6|now left]| | |]; intros; inv_some; now left).
Qed.

(* a flag is written under the mutex: whatever it becomes, the thread knows that it wrote *)
Lemma flag_pres strict t w A (sh cl : bool) :
  cinv A w -> (strict = true -> finv A w) -> tvars t (A t) w -> held (A t) = true ->
  let a' := mkA true false true (isempty (A t)) (vars (A t)) (regs (A t)) (mine (A t)) in
  let w1 := mkW (thr w) (lock w) (pend w) sh cl (next w) (dones w) (intable w) (holder w) (bad w) in
  cinv (upd A t a') w1 /\ (strict = true -> finv (upd A t a') w1) /\ tvars t a' w1.
Proof.
  intros G F [Hh Hv] Hheld a' w1. pose proof (proj1 Hh Hheld) as Hl. split; [|split].
  - apply cinv_upd with (w := w); auto. intros v; auto.
  - intros Hs. specialize (F Hs). unfold finv in *. cbn. rewrite Hl in *. rewrite upd_same.
    destruct F as (_ & J2 & _). repeat split; auto; discriminate.
  - split; [cbn; tauto|]. intros v. specialize (Hv v). now rewrite Hheld in Hv.
Qed.

Lemma exec_pres strict t x o : step_ok strict t x o.
Proof.
  intros w w1 A a' G F TV Ha He. pose proof TV as [Hh Hv].
  destruct o.
  - (* PLock *) cbn in Ha, He.
    destruct (held (A t)) eqn:Hheld; [discriminate|]. destruct (lock w) eqn:Hl; [discriminate|]. inv_some.
    split; [|split].
    + apply cinv_upd with (w := w); auto. intros v; auto.
    + intros Hs. specialize (F Hs). unfold finv in *. cbn. rewrite Hl in F. rewrite upd_same. repeat split; auto; discriminate.
    + split; [cbn; tauto|]. intros v. specialize (Hv v). unfold get in *. cbn.
      destruct (get_ (vars (A t)) v); auto. now destruct Hv.
  - (* PUnlock *) cbn in Ha, He.
    destruct (held (A t)) eqn:Hheld; cbn in Ha; [|discriminate].
    destruct (negb strict || implb (flagset (A t)) (isempty (A t))) eqn:Hc; [|discriminate].
    pose proof (proj1 Hh eq_refl) as Hl. rewrite Hl, Nat.eqb_refl in He. inv_some.
    split; [|split].
    + apply cinv_upd with (w := w); auto. intros v. cbn. now rewrite ownedish_unpeek.
    + intros Hs. specialize (F Hs). unfold finv in *. cbn. rewrite Hl in F. destruct F as (_ & J2 & J3).
      rewrite Hs in Hc. destruct (flagset (A t)); auto.
    + split; [cbn; split; discriminate|]. intros v. cbn. exact (srel_unpeek eq_refl (Hv v)).
  - (* PNew *) eapply new_pres; eassumption.
  - (* PMine *) cbn in Ha, He.
    destruct (free (A t) v) eqn:Hf; [|discriminate]. inv_some. apply assign_pres with (s := VUnknown); now auto.
  - (* PRecv *) cbn in Ha, He.
    destruct (free (A t) v) eqn:Hf; [|discriminate]. inv_some. apply assign_pres with (s := VUnknown); now auto.
  - (* PReg *) eapply reg_pres; eassumption.
  - (* PPeek *) cbn in Ha, He.
    destruct (held (A t)) eqn:Hheld; cbn in Ha; [|discriminate].
    destruct (free (A t) v) eqn:Hf; [|discriminate]. inv_some.
    apply assign_pres with (s := VPeeked k false false); auto. cbn. rewrite upd_same. repeat split; auto. discriminate.
  - (* PDel *) eapply del_pres; eassumption.
  - (* PNil *) cbn in Ha, He.
    destruct (free (A t) v) eqn:Hf; [|discriminate]. inv_some.
    apply assign_pres with (s := VNil); auto. cbn. now rewrite upd_same.
  - (* PIsNil *) cbn in He.
    destruct (loc (thr w t) v) eqn:Hl; [discriminate|]. inv_some. rewrite (astep_isnil strict _ _ _ Ha).
    apply var_pres with (w := w1) (v := v) (s := VNil); auto using shared_eq_refl. discriminate.
  - (* PNonNil *) cbn in He.
    destruct (loc (thr w t) v) as [c|] eqn:Hl; [|discriminate]. inv_some.
    pose proof (Hv v) as Hs.
    destruct (astep_nonnil strict _ _ _ Ha) as [->|[(Hg & ->)|(k & s & nn & Hg & ->)]]; [now apply noop_pres| |];
      rewrite Hg in Hs.
    + apply var_pres with (w := w1) (v := v) (s := VOwned); auto using shared_eq_refl.
      * congruence.
      * now rewrite Hg.
    + apply var_pres with (w := w1) (v := v) (s := VPeeked k s true); auto using shared_eq_refl; [|discriminate].
      destruct Hs as (P1 & P2 & P3). repeat split; auto. congruence.
  - (* PSame *) cbn in He.
    destruct (ocall_eqb (loc (thr w t) v) (loc (thr w t) w0)) eqn:Hq; [|discriminate]. inv_some.
    destruct (astep_same strict _ _ _ _ Ha) as [->|(u & k & s & nn & Hg & ->)]; [now apply noop_pres|].
    apply var_pres with (w := w1) (v := u) (s := VPeeked k true nn); auto using shared_eq_refl.
    + specialize (Hv u). now rewrite Hg in Hv.
    + discriminate.
  - (* PDiff *) cbn in Ha, He.
    destruct (ocall_eqb (loc (thr w t) v) (loc (thr w t) w0)); [discriminate|]. inv_some. now apply noop_pres.
  - (* PWrite *) eapply (touch_pres _ _ _ _ false); eassumption.
  - (* PDone *) eapply (touch_pres _ _ _ _ true); eassumption.
  - (* PEscape *) discriminate Ha.
  - (* POpen *) cbn in Ha, He.
    destruct (held (A t)) eqn:Hheld; cbn in Ha; [|discriminate].
    destruct (flagset (A t)) eqn:Hfl; cbn in Ha; [discriminate|].
    destruct (shut w || closing w) eqn:Hsc; [discriminate|]. inv_some.
    apply local_pres with (w := w1); auto using shared_eq_refl.
    + unfold fview. cbn. tauto.
    + intros v; auto.
  - (* PShut *) cbn in Ha, He.
    destruct (shut w || closing w); [|discriminate]. inv_some. now apply noop_pres.
  - (* PSetShutdown *) cbn in Ha, He.
    destruct (held (A t)) eqn:Hheld; [|discriminate]. inv_some. now apply flag_pres.
  - (* PSetClosing *) cbn in Ha, He.
    destruct (held (A t)) eqn:Hheld; [|discriminate]. inv_some. now apply flag_pres.
  - (* PSeqRead *) cbn in Ha, He.
    inv_some. apply local_pres with (w := w); auto.
    + apply shared_eq_set_thr.
    + intros v0. cbn. rewrite upd_same. apply (srel_unpeek (h := held (A t)) (th := thr w t) (w := w)); [reflexivity|apply Hv].
    + intros v0. cbn. rewrite upd_same, ownedish_unpeek. auto.
  - (* PSeqInc *) cbn in Ha, He.
    inv_some. now apply noop_pres.
  - (* PNext *) cbn in Ha, He.
    destruct (held (A t)) eqn:Hheld; cbn in Ha; [|discriminate].
    destruct (noleak (A t)) eqn:Hnl; [|discriminate].
    destruct (lookup (pend w) x) as [c|] eqn:Hl; [|discriminate]. inv_some.
    apply local_pres with (w := w); auto.
    + apply shared_eq_set_thr.
    + unfold fview. intuition discriminate.
    + intros v0. cbn. rewrite upd_same. cbn.
      destruct (Nat.eqb_spec v v0) as [->|Hne]; cbn; [|exact I].
      rewrite !upd_same. repeat split; auto. discriminate.
    + intros v0. cbn. destruct (Nat.eqb v v0); discriminate.
  - (* PEnd *) cbn in Ha, He.
    destruct (held (A t)) eqn:Hheld; cbn in Ha; [|discriminate].
    destruct (noleak (A t)) eqn:Hnl; [|discriminate].
    destruct (pend w) eqn:Hp; [|discriminate]. inv_some.
    apply local_pres with (w := w1); auto using shared_eq_refl.
    + unfold fview. tauto.
    + intros v0. exact I.
    + intros v0. discriminate.
Qed.
Arguments exec_pres {strict t x o}.

Lemma infeasible_blocked t a w x o : tvars t a w -> infeasible a o = true -> exec t x o w = None.
Proof.
  intros (_ & Hv) Hi. destruct o; cbn in Hi; try discriminate; cbn; generalize (Hv v); unfold srel.
  - destruct (get a v) as [| |k s []| | |]; try discriminate; destruct (loc (thr w t) v); try reflexivity; try contradiction.
    intros (_ & _ & Hn). exfalso. now apply Hn.
  - destruct (get a v); try discriminate. intros ->. reflexivity.
Qed.

Lemma inv_set_thr strict A w t th :
  loc th = loc (thr w t) -> env th = env (thr w t) ->
  cinv A w -> (strict = true -> finv A w) -> (forall t', tvars t' (A t') w) ->
  cinv A (set_thr w t th) /\ (strict = true -> finv A (set_thr w t th)) /\ forall t', tvars t' (A t') (set_thr w t th).
Proof.
  intros Hl He G F TV.
  assert (Hthr : forall t', loc (thr (set_thr w t th) t') = loc (thr w t') /\ env (thr (set_thr w t th) t') = env (thr w t')).
  { intros t'. cbn. unfold upd. destruct (Nat.eqb_spec t' t) as [->|]; auto. }
  split; [|split].
  - apply cinv_shrink with (A := A) (w := w); auto. intros t0 v c [H1 H2]. split; [|exact H2]. now rewrite <- (proj1 (Hthr t0)).
  - intros Hs. now apply (finv_frame _ _ _ _ (F Hs)).
  - intros t'. apply tvars_frame with (w := w); auto; try apply Hthr. tauto.
Qed.

Lemma step_pres strict t x w w' : Inv strict w -> step t x w = Some w' -> Inv strict w'.
Proof.
  intros (A & G & F & TR) Hs. unfold step in Hs.
  assert (TV : forall t', tvars t' (A t') w) by apply TR.
  destruct (TR t) as (_ & Hck & Htodo).
  destruct (pc (thr w t)) as [|o r].
  - (* the next path begins *)
    destruct (todo (thr w t)) as [|[e p] more]; [discriminate|]. inv_some. exists (upd A t ainit).
    cbn in Hck. apply andb_true_iff in Hck. destruct Hck as (Hnh%negb_true_iff & Hnl).
    assert (Hnolock : lock w <> Some t).
    { intros Hl. apply (proj1 (TV t)) in Hl. congruence. }
    assert (Hthr : forall t', t' <> t -> thr (set_thr w t (mkT e p more (loc (thr w t)))) t' = thr w t').
    { intros t' Hne. cbn. now rewrite upd_other. }
    split; [|split].
    + apply cinv_upd with (w := w); auto. intros v; discriminate.
    + intros Hst. apply (finv_frame _ _ _ _ (F Hst)); auto. intros t0 Hl. rewrite upd_other; [auto|congruence].
    + intros t'. destruct (Nat.eq_dec t' t) as [->|Hne].
      * rewrite upd_same. cbn. rewrite upd_same. inversion Htodo; subst. repeat split; auto; discriminate.
      * rewrite upd_other, Hthr by exact Hne. destruct (TR t') as (T1 & T23). split; [|exact T23].
        apply tvars_frame with (w := w); auto; try now rewrite Hthr. tauto.
  - (* the next operation of the running path *)
    destruct (exec t x o w) as [w1|] eqn:He; [|discriminate]. inv_some.
    cbn in Hck. destruct (astep strict (A t) o) as [a'|] eqn:Ha;
      [|rewrite (infeasible_blocked _ _ _ x _ (TV t) Hck) in He; discriminate].
    exists (upd A t a').
    destruct (exec_pres _ _ _ _ G F (TV t) Ha He) as (G' & F' & TVt).
    destruct (exec_footprint He) as [Hthr _ Htd1 _ _ _].
    assert (TV' : forall t', tvars t' (upd A t a' t') w1).
    { intros t'. destruct (Nat.eq_dec t' t) as [->|Hne]; [now rewrite upd_same|rewrite upd_other by exact Hne].
      exact (tvars_other Hne (TV t) Ha He (TV t')). }
    destruct (inv_set_thr strict _ w1 t (mkT (env (thr w1 t)) r (todo (thr w1 t)) (loc (thr w1 t))) eq_refl eq_refl G' F' TV')
      as (G2 & F2 & TV2).
    split; [exact G2|split; [exact F2|]]. intros t'. split; [apply TV2|]. cbn.
    destruct (Nat.eq_dec t' t) as [->|Hne].
    + rewrite !upd_same. now rewrite Htd1.
    + rewrite !upd_other, Hthr by exact Hne. apply TR.
Qed.
Arguments step_pres {strict t x w w'}.

Lemma run_pres strict sched w : Inv strict w -> Inv strict (run sched w).
Proof.
  revert w. induction sched as [|[t x] r IH]; intros w HI; cbn; [exact HI|].
  apply IH. destruct (step t x w) as [w'|] eqn:Hs; [eapply step_pres; eauto|exact HI].
Qed.

Lemma start_inv strict progs :
  (forall t, Forall (fun ep => check strict ainit (snd ep) = true) (progs t)) -> Inv strict (start progs).
Proof.
  intros Hp. exists (fun _ => ainit). split; [|split].
  - constructor; cbn; auto; try discriminate; intros t v; [intros c [_ H]|intros t' v' c [_ H]]; discriminate.
  - intros _. cbn. auto.
  - intros t. repeat split; cbn; auto; discriminate.
Qed.

Lemma inv_safe strict w : Inv strict w -> safe w.
Proof. intros (A & G & _). split; apply G. Qed.
Lemma inv_none_stranded w : Inv true w -> none_stranded w.
Proof. intros (A & _ & F & _) Hl. specialize (F eq_refl). unfold finv in F. now rewrite Hl in F. Qed.

Theorem disciplined_threads_are_safe strict progs sched :
  (forall t, Forall (fun ep => check strict ainit (snd ep) = true) (progs t)) ->
  safe (run sched (start progs)).
Proof. intros Hp. eapply inv_safe. apply run_pres. now apply start_inv. Qed.

Theorem strict_threads_strand_no_call progs sched :
  (forall t, Forall (fun ep => check true ainit (snd ep) = true) (progs t)) ->
  none_stranded (run sched (start progs)).
Proof. intros Hp. apply inv_none_stranded. apply run_pres. now apply start_inv. Qed.

Lemma check_app strict l1 : forall a l2,
  check strict a (l1 ++ l2) =
  match brun strict a l1 with Some (Some a1) => check strict a1 l2 | Some None => true | None => false end.
Proof.
  induction l1 as [|o r IH]; intros a l2; cbn; [reflexivity|].
  destruct (astep strict a o); [apply IH|]. now destruct (infeasible a o).
Qed.

Lemma keys_eqb_eq a : forall b, keys_eqb a b = true -> a = b.
Proof.
  induction a as [|x a IH]; destruct b as [|y b]; cbn; try discriminate; auto.
  intros H. apply andb_true_iff in H. destruct H as (H1 & H2). apply Nat.eqb_eq in H1. subst. f_equal. auto.
Qed.

Lemma frame_eqb_after a b v k : ast_frame_eqb a b = true ->
  after_next b v k = after_next a v k /\ after_end b = after_end a.
Proof.
  unfold ast_frame_eqb. rewrite !andb_true_iff.
  intros (((H1%Bool.eqb_prop & H2%Bool.eqb_prop) & H3%keys_eqb_eq) & H4).
  assert (Hm : mine a = mine b).
  { destruct (mine a), (mine b); try discriminate; auto. apply Nat.eqb_eq in H4. now subst. }
  unfold after_next, after_end. now rewrite H1, H2, H3, Hm.
Qed.

Lemma iters_check strict a v k bodies its fr :
  (forall b, In b bodies -> body_ok strict a v k b = true) -> iters v k bodies its ->
  check strict (after_end a) fr = true ->
  forall a0, after_next a0 v k = after_next a v k -> after_end a0 = after_end a ->
  held a0 = true -> noleak a0 = true -> check strict a0 (its ++ fr) = true.
Proof.
  intros Hb Hi Hfr. induction Hi as [|b more Hin Hi IH]; intros a0 Hn He Hh Hl; cbn; rewrite Hh, Hl; cbn.
  - now rewrite He.
  - rewrite Hn, <- app_assoc, check_app. specialize (Hb b Hin). unfold body_ok in Hb.
    destruct (brun strict (after_next a v k) b) as [[a'|]|]; [|reflexivity|now rewrite andb_false_r in Hb].
    rewrite !andb_true_iff in Hb. destruct Hb as (_ & ((Hh' & Hn') & Hfe) & _).
    destruct (frame_eqb_after _ _ v k Hfe). now apply IH.
Qed.

Theorem scheck_expands strict sp : forall a fp,
  scheck strict a sp = true -> expands sp fp -> check strict a fp = true.
Proof.
  induction sp as [|s r IH]; intros a fp Hs He;
    inversion He as [|o r0 fr Hx|v k bodies r0 its fr Hit Hx]; subst; cbn in *.
  - exact Hs.
  - destruct (astep strict a o) as [a'|]; [now apply IH|exact Hs].
  - rewrite !andb_true_iff in Hs. destruct Hs as (((Hh & Hn) & Hb) & Hr). rewrite forallb_forall in Hb.
    apply (iters_check strict a v k bodies its fr); auto.
Qed.
