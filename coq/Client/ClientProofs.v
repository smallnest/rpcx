(* Facts about the pending table; the invariant Inv of the client machine (C03 routing, C05 at most once) and its
   preservation by every rule; what an event hands to the server-message channel (pushed, Step_pushes_only_recv). *)
From Coq Require Import List NArith Arith Bool Lia.
From RPCX Require Import Client.ClientSM.
From RPCX Require Export Client.ClientStep.
Import ListNotations.

Lemma In_pdel k k' c (m : pmap) : In (k', c) (pdel k m) <-> In (k', c) m /\ k' <> k.
Proof.
  induction m as [|[k0 v0] m IH]; cbn; [tauto|].
  destruct (N.eqb_spec k k0) as [->|Hne].
  - split; [tauto|]. intros [[H|H] Hn]; [congruence|tauto].
  - cbn. split.
    + intros [H|H]; [split; [left; exact H|congruence]|tauto].
    + tauto.
Qed.

Lemma keys_pdel k (m : pmap) x : In x (map fst (pdel k m)) -> In x (map fst m) /\ x <> k.
Proof.
  intros H. apply in_map_iff in H. destruct H as ([k' c] & <- & H). apply In_pdel in H.
  split; [apply in_map_iff; exists (k', c); tauto|tauto].
Qed.

Lemma NoDup_pdel k (m : pmap) : NoDup (map fst m) -> NoDup (map fst (pdel k m)).
Proof.
  induction m as [|[k0 v0] m IH]; cbn; intros H; [constructor|].
  inversion H as [|? ? Hn Hr].
  destruct (N.eqb_spec k k0); [apply IH, Hr|]. constructor; [|apply IH, Hr].
  intros Hin. apply keys_pdel in Hin. tauto.
Qed.

Lemma plookup_In k c (m : pmap) : NoDup (map fst m) -> (plookup k m = Some c <-> In (k, c) m).
Proof.
  induction m as [|[k0 v0] m IH]; cbn; intros Hnd; [split; [discriminate|tauto]|].
  inversion Hnd as [|? ? Hn Hr]; subst.
  destruct (N.eqb_spec k k0) as [->|Hne].
  - split; [intros H; injection H as ->; left; reflexivity|].
    intros [H|H]; [injection H as ->; reflexivity|]. exfalso. apply Hn. apply in_map_iff. exists (k0, c). tauto.
  - rewrite (IH Hr). split; [tauto|]. intros [H|H]; [congruence|exact H].
Qed.

Lemma plookup_notin k (p : pmap) : ~ In k (map fst p) -> plookup k p = None.
Proof.
  induction p as [|[k0 v0] p IH]; cbn; [reflexivity|]. intros H.
  destruct (N.eqb_spec k k0) as [->|]; [tauto|]. tauto.
Qed.

Record Inv (p : pmap) (cs : list call) : Prop := {
  inv_keys : NoDup (map fst p);
  inv_pend : forall k c, In (k, c) p ->
      exists x, nth_error cs c = Some x /\ c_seq x = Some k /\ c_spc x <> SNew /\ c_signals x = [];
  inv_once : forall c x, nth_error cs c = Some x -> length (c_signals x) <= 1;
  inv_new : forall c x, nth_error cs c = Some x -> c_spc x = SNew -> c_signals x = [] /\ c_seq x = None;
  (* C03, routing *)
  inv_route : forall c x f r, nth_error cs c = Some x -> In (ByResp f, r) (c_signals x) ->
      c_seq x = Some (f_seq f) /\ f_servermsg f = false /\ r = interp f x }.

Definition wf_init (cs : list call) : Prop :=
  Forall (fun x => c_spc x = SNew /\ c_signals x = [] /\ c_seq x = None) cs.

Lemma wf_init_nth cs c x : wf_init cs -> nth_error cs c = Some x -> c_spc x = SNew /\ c_signals x = [] /\ c_seq x = None.
Proof. intros Hw Hx. exact (proj1 (Forall_forall _ _) Hw x (nth_error_In _ _ Hx)). Qed.

Lemma inv_init cs : wf_init cs -> Inv [] cs.
Proof.
  intros H. constructor; [constructor|intros k c []|..]; intros c x; intros; destruct (wf_init_nth cs c x H) as (E1 & E2 & E3); auto.
  - rewrite E2. cbn. lia.
  - rewrite E2 in *. contradiction.
Qed.

Lemma inv_pend_seq p cs k c x : Inv p cs -> In (k, c) p -> nth_error cs c = Some x -> c_seq x = Some k.
Proof. intros Hi Hin Hx. destruct (inv_pend _ _ Hi k c Hin) as (x' & Hx' & Hs & _). congruence. Qed.
Arguments inv_pend_seq {p cs k c x}.

Lemma interp_kind f x y : c_kind x = c_kind y -> c_oneway x = c_oneway y -> interp f x = interp f y.
Proof. intros H H2. unfold interp. rewrite H, H2. reflexivity. Qed.

(* the three clauses of Inv that speak of a single call *)
Definition call_ok (x : call) : Prop :=
  length (c_signals x) <= 1 /\ (c_spc x = SNew -> c_signals x = [] /\ c_seq x = None) /\
  forall f r, In (ByResp f, r) (c_signals x) -> c_seq x = Some (f_seq f) /\ f_servermsg f = false /\ r = interp f x.

Lemma inv_call_ok p cs c x : Inv p cs -> nth_error cs c = Some x -> call_ok x.
Proof. intros [_ _ Ho Hn Hr] Hx. split; [|split]; eauto. Qed.
Arguments inv_call_ok {p cs c x}.

(* Inv after call c is changed by g and the table becomes p': g x is in order by itself (call_ok), c's entries in p'
   fit g x, the other calls' entries were in p already *)
Lemma inv_upd p p' cs c g :
  Inv p cs -> NoDup (map fst p') ->
  (forall x, nth_error cs c = Some x -> call_ok (g x)) ->
  (forall k, In (k, c) p' -> exists x, nth_error cs c = Some x /\ c_seq (g x) = Some k /\ c_spc (g x) <> SNew /\ c_signals (g x) = []) ->
  (forall k c', c' <> c -> In (k, c') p' -> In (k, c') p) ->
  Inv p' (upd_nth c g cs).
Proof.
  intros Hi Hnd Hg Hc Ho.
  assert (Hok : each (fun _ => call_ok) (upd_nth c g cs)).
  { refine (each_upd (fun j x => inv_call_ok Hi) _ _); auto. }
  constructor; [exact Hnd| |intros j y Hy; apply (Hok j y Hy)..|intros j y f r Hy; apply (Hok j y Hy)].
  intros k c' Hin. rewrite nth_error_upd_nth. destruct (Nat.eqb_spec c c') as [<-|Hne].
  - destruct (Hc k Hin) as (x & -> & Hx). now exists (g x).
  - apply (inv_pend _ _ Hi k c'), Ho; auto.
Qed.

Lemma inv_upd_keep p cs c (g : call -> call) :
  (forall x, c_signals (g x) = c_signals x /\ c_seq (g x) = c_seq x /\ c_kind (g x) = c_kind x /\ c_oneway (g x) = c_oneway x /\
             (c_spc (g x) = SNew -> c_spc x = SNew)) ->
  Inv p cs -> Inv p (upd_nth c g cs).
Proof.
  intros Hg Hi. apply inv_upd with p; [exact Hi|apply Hi| | |].
  - intros x Hx. destruct (inv_call_ok Hi Hx) as (A & B & C), (Hg x) as (G1 & G2 & G3 & G4 & G5).
    unfold call_ok. rewrite G1, G2. split; [exact A|split; [auto|]]. intros f r Hin.
    destruct (C f r Hin) as (R1 & R2 & ->). auto using interp_kind.
  - intros k Hin. destruct (inv_pend _ _ Hi _ _ Hin) as (x & Hx & H1 & H2 & H3), (Hg x) as (G1 & G2 & _ & _ & G5).
    exists x. rewrite G1, G2. repeat split; auto.
  - auto.
Qed.

Lemma inv_set_spc p cs c s : s <> SNew -> Inv p cs -> Inv p (upd_nth c (set_spc s) cs).
Proof. intros Hs. apply inv_upd_keep. intros x. cbn. repeat split. congruence. Qed.

Lemma inv_set_ret p cs c r : Inv p cs -> Inv p (upd_nth c (set_ret r) cs).
Proof. apply inv_upd_keep. intros x. repeat split; auto. Qed.

Lemma inv_complete p cs k c cz r :
  Inv p cs -> In (k, c) p ->
  (forall f, cz = ByResp f -> f_seq f = k /\ f_servermsg f = false /\
             forall x, nth_error cs c = Some x -> r = interp f x) ->
  Inv (pdel k p) (upd_nth c (add_signal cz r) cs).
Proof.
  intros Hi Hin Hcz. destruct (inv_pend _ _ Hi k c Hin) as (xc & Hxc & Hsc & Hnc & Hgc).
  apply inv_upd with p; [exact Hi|apply NoDup_pdel, Hi| | |].
  - intros x Hx. assert (x = xc) as -> by congruence. unfold call_ok. cbn. rewrite Hgc. cbn.
    split; [lia|split; [tauto|]]. intros f r' [[= -> ->]|[]]. destruct (Hcz f eq_refl) as (<- & F2 & F3).
    rewrite (F3 xc Hxc). auto.
  - intros k' [H Hne]%In_pdel. pose proof (inv_pend_seq Hi H Hxc). congruence.
  - intros k' c' _ [H _]%In_pdel. exact H.
Qed.

Lemma inv_complete_at st k cz r :
  Inv (pending st) (calls st) ->
  (forall f, cz = ByResp f -> f_seq f = k /\ f_servermsg f = false /\
             forall c x, plookup k (pending st) = Some c -> nth_error (calls st) c = Some x -> r = interp f x) ->
  Inv (pending (complete_at st k cz r)) (calls (complete_at st k cz r)).
Proof.
  intros Hi Hcz. destruct (complete_at_cases st k cz r) as [(_ & ->)|(c & E & ->)]; [exact Hi|].
  apply inv_complete; [exact Hi|apply plookup_In; [apply Hi|exact E]|].
  intros f Hf. destruct (Hcz f Hf) as (F1 & F2 & F3). repeat split; auto. intros x Hx. eapply F3; eauto.
Qed.

(* a sweep is a sequence of completions; its stages are no states of the machine, which is why Inv and Reg3 speak of a
   table and a list of calls *)
Lemma inv_fail_all cz r : (forall f, cz <> ByResp f) -> forall p cs, Inv p cs -> Inv [] (fail_all p cz r cs).
Proof.
  intros Hcz p. induction p as [|[k c] p IH]; intros cs Hi; [exact Hi|]. apply IH.
  (* the first entry's key is no key of the others: they are what is left when it is completed *)
  destruct (proj1 (NoDup_cons_iff _ _) (inv_keys _ _ Hi)) as [Hk _].
  replace p with (pdel k ((k, c) :: p)) by (cbn; rewrite N.eqb_refl; apply pdel_absent, plookup_notin, Hk).
  apply inv_complete; [exact Hi|now left|]. intros f Hf. destruct (Hcz f Hf).
Qed.

Lemma inv_new_absent p cs c x k : Inv p cs -> nth_error cs c = Some x -> c_spc x = SNew -> ~ In (k, c) p.
Proof. intros Hi Hx Hnew H. destruct (inv_pend _ _ Hi k c H) as (x' & Hx' & _ & H2 & _). congruence. Qed.
Arguments inv_new_absent {p cs c x k}.

Lemma inv_register p cs c x s :
  Inv p cs -> nth_error cs c = Some x -> c_spc x = SNew ->
  Inv (pset s c p) (upd_nth c (fun x => set_spc SReg (set_seq s x)) cs).
Proof.
  intros Hi Hx Hnew. destruct (inv_new _ _ Hi c x Hx Hnew) as [Hsig _].
  apply inv_upd with p; [exact Hi| | | |].
  - constructor; [|apply NoDup_pdel, Hi]. intros H. apply keys_pdel in H. tauto.
  - intros y Hy. assert (y = x) as -> by congruence. unfold call_ok. cbn. rewrite Hsig. cbn.
    split; [lia|split; [discriminate|intros f r []]].
  - intros k [[= <-]|[H _]%In_pdel]; [|destruct (inv_new_absent Hi Hx Hnew H)].
    exists x. repeat split; auto. discriminate.
  - intros k c' Hne [[= _ <-]|[H _]%In_pdel]; [congruence|exact H].
Qed.

Lemma inv_reject p cs c x :
  Inv p cs -> nth_error cs c = Some x -> c_spc x = SNew ->
  Inv p (upd_nth c (fun x => set_spc SDone (add_signal Rejected RShutdown x)) cs).
Proof.
  intros Hi Hx Hnew. destruct (inv_new _ _ Hi c x Hx Hnew) as [Hsig _].
  apply inv_upd with p; [exact Hi|apply Hi| | |auto].
  - intros y Hy. assert (y = x) as -> by congruence. unfold call_ok. cbn. rewrite Hsig. cbn.
    split; [lia|split; [discriminate|intros f r [[=]|[]]]].
  - intros k H. destruct (inv_new_absent Hi Hx Hnew H).
Qed.

Theorem Step_inv st e st' : Step st e st' -> Inv (pending st) (calls st) -> Inv (pending st') (calls st').
Proof.
  intros HS Hi. induction HS.
  - (* St_idle *) exact Hi.
  - (* St_reject *) eapply inv_reject; eauto.
  - (* St_register *) eapply inv_register; eauto.
  - (* St_finish *) apply inv_set_spc; [discriminate|]. apply inv_complete_at; [exact Hi|destruct Hfin; discriminate].
  - (* St_wrote *) apply inv_set_spc; [destruct (c_oneway x); discriminate|exact Hi].
  - (* St_ctx *) apply inv_complete_at; [exact Hi|discriminate].
  - (* St_returns *) apply inv_set_ret, IHHS.
  - (* St_push *) exact Hi.
  - (* St_recv *) apply inv_complete_at; [exact Hi|]. intros f' [= <-]. auto.
  - (* St_readerr *) apply inv_fail_all; [discriminate|exact Hi].
  - (* St_close *) apply inv_fail_all; [discriminate|exact Hi].
Qed.

Theorem reach_inv cs chan sched : wf_init cs -> Inv (pending (run (init cs chan) sched)) (calls (run (init cs chan) sched)).
Proof. intros Hw. apply (run_invariant (fun st => Inv (pending st) (calls st)) Step_inv), inv_init, Hw. Qed.

(* what an event hands to the registered ServerMessageChan *)
Definition pushed (st : state) (e : event) : list nat :=
  match e with
  | ERecv f => if reader_alive st && f_servermsg f && chan_registered st then [f_id f] else []
  | _ => []
  end.

Lemma Step_pushes_only_recv st e st' : Step st e st' -> pushes st' = pushes st \/ exists f, e = ERecv f.
Proof.
  (* eauto: the two rules of ERecv, St_returns (by its induction hypothesis) and the rules whose pushes are those of st
     by computation; the completions of St_finish and St_ctx remain *)
  intros HS. induction HS; eauto; left; apply (complete_at_frame pushes); reflexivity.
Qed.
