(* The interface through which the proofs about Client/ClientSM.v use `step` and `run`: what an update of one call
   keeps (`obs`: a field of a call, `each`: a property of every call), one frame lemma per building block, the transition
   rules (Step), induction over schedules. *)
From Coq Require Import List NArith Arith Bool.
From RPCX Require Import Client.ClientSM.
Import ListNotations.

Lemma nth_error_upd_nth {A} (f : A -> A) (l : list A) i j :
  nth_error (upd_nth i f l) j = if Nat.eqb i j then option_map f (nth_error l j) else nth_error l j.
Proof.
  revert i j. induction l as [|x l IH]; intros [|i] [|j]; cbn; try reflexivity.
  - destruct (Nat.eqb _ _); reflexivity.
  - apply IH.
Qed.

Lemma upd_nth_none {A} (f : A -> A) (l : list A) i : nth_error l i = None -> upd_nth i f l = l.
Proof. revert i. induction l as [|x l IH]; intros [|i]; cbn; intros H; try reflexivity; [discriminate|now rewrite IH]. Qed.

Definition obs {A} (o : call -> A) (cs : list call) (j : nat) : option A := option_map o (nth_error cs j).

Lemma obs_nth {A} (o : call -> A) cs j x : nth_error cs j = Some x -> obs o cs j = Some (o x).
Proof. intros H. unfold obs. now rewrite H. Qed.
Arguments obs_nth {A o cs j x}.

Lemma obs_inv {A} (o : call -> A) cs j a : obs o cs j = Some a -> exists x, nth_error cs j = Some x /\ o x = a.
Proof. unfold obs. destruct (nth_error cs j) as [x|]; [intros [= <-]; eauto|discriminate]. Qed.

Lemma obs_upd {A} (o : call -> A) g : (forall x, o (g x) = o x) -> forall cs c j, obs o (upd_nth c g cs) j = obs o cs j.
Proof.
  intros Hg cs c j. unfold obs. rewrite nth_error_upd_nth. destruct (Nat.eqb c j); [|reflexivity].
  destruct (nth_error cs j); cbn; [now rewrite Hg|reflexivity].
Qed.

Lemma obs_upd_at {A} (o : call -> A) g cs c j :
  obs o (upd_nth c g cs) j = if Nat.eqb c j then option_map (fun x => o (g x)) (nth_error cs j) else obs o cs j.
Proof. unfold obs. rewrite nth_error_upd_nth. destruct (Nat.eqb c j); [now destruct (nth_error cs j)|reflexivity]. Qed.

Lemma obs_fail_all {A} (o : call -> A) cz r : (forall x, o (add_signal cz r x) = o x) ->
  forall p cs j, obs o (fail_all p cz r cs) j = obs o cs j.
Proof. intros Ho. induction p as [|[k c] p IH]; intros cs j; cbn; [reflexivity|]. rewrite IH. now apply obs_upd. Qed.

Definition each (Q : nat -> call -> Prop) (cs : list call) : Prop := forall c x, nth_error cs c = Some x -> Q c x.

Lemma each_upd (Q Q' : nat -> call -> Prop) cs c g :
  each Q cs -> (forall j x, j <> c -> Q j x -> Q' j x) -> (forall x, nth_error cs c = Some x -> Q c x -> Q' c (g x)) ->
  each Q' (upd_nth c g cs).
Proof.
  intros H Ho Hc j y. rewrite nth_error_upd_nth. destruct (Nat.eqb_spec c j) as [<-|Hne].
  - destruct (nth_error cs c) as [x|] eqn:E; [|discriminate]. intros [= <-]. apply Hc; [reflexivity|apply H, E].
  - intros Hy. apply Ho; [congruence|apply H, Hy].
Qed.
Arguments each_upd {Q Q' cs c g}.

Lemma complete_at_cases st k cz r :
  plookup k (pending st) = None /\ complete_at st k cz r = st \/
  exists c, plookup k (pending st) = Some c /\
            complete_at st k cz r = updc (set_pending st (pdel k (pending st))) c (add_signal cz r).
Proof. unfold complete_at. destruct (plookup k (pending st)) as [c|]; eauto. Qed.

Lemma complete_at_frame {A} (F : state -> A) : (forall st p cs, F (set_calls (set_pending st p) cs) = F st) ->
  forall st k cz r, F (complete_at st k cz r) = F st.
Proof. intros HF st k cz r. unfold complete_at. destruct (plookup k (pending st)); [apply HF|reflexivity]. Qed.

Lemma obs_complete_at {A} (o : call -> A) cz r : (forall x, o (add_signal cz r x) = o x) ->
  forall st k j, obs o (calls (complete_at st k cz r)) j = obs o (calls st) j.
Proof. intros Ho st k j. unfold complete_at. destruct (plookup k (pending st)); [now apply obs_upd|reflexivity]. Qed.

Lemma pdel_absent k (p : pmap) : plookup k p = None -> pdel k p = p.
Proof.
  induction p as [|[k0 v0] p IH]; cbn; [reflexivity|].
  destruct (N.eqb_spec k k0); [discriminate|]. intros H. now rewrite IH.
Qed.

Lemma pending_complete_at st k cz r : pending (complete_at st k cz r) = pdel k (pending st).
Proof. unfold complete_at. destruct (plookup k (pending st)) eqn:E; [reflexivity|]. symmetry. apply pdel_absent, E. Qed.

(* the anonymous state updates inside step, named *)
Definition clash (s : N) (p : pmap) : bool := match plookup s p with Some _ => true | None => false end.
Definition entered (st : state) (s : N) (c : nat) (n : N) : state :=
  mkState n (pset s c (pending st)) (closing st) (shutdown st) (conn_open st) (reader_alive st) (chan_registered st)
          (calls st) (pushes st) (wire_out st) (collided st || clash s (pending st)).
Definition wrote (st : state) (c : nat) : state :=
  mkState (next_seq st) (pending st) (closing st) (shutdown st) (conn_open st) (reader_alive st) (chan_registered st)
          (calls st) (pushes st) (wire_out st ++ [c]) (collided st).
Definition pushed_to (st : state) (id : nat) : state :=
  mkState (next_seq st) (pending st) (closing st) (shutdown st) (conn_open st) (reader_alive st) (chan_registered st)
          (calls st) (pushes st ++ [id]) (wire_out st) (collided st).
Definition swept (st : state) (cl sh ra : bool) (cz : cause) (r : result) : state :=
  mkState (next_seq st) [] cl sh false ra (chan_registered st) (fail_all (pending st) cz r (calls st))
          (pushes st) (wire_out st) (collided st).

Lemma spc_eqb_spec a b : reflect (a = b) (spc_eqb a b).
Proof. destruct a, b; constructor; congruence. Qed.

(* the two registrations: (event, the number the call is entered under, the counter afterwards) *)
Inductive registers (st : state) (c : nat) (x : call) : event -> N -> N -> Prop :=
  | reg_send (Hraw : is_raw x = false) (Hup : shutdown st || closing st = false) :
      registers st c x (EReg c) (next_seq st) (N.succ (next_seq st))
  | reg_raw (Hraw : is_raw x = true) : registers st c x (ERawReg c) (c_rawseq x) (next_seq st).

(* the local failure / completion paths of send: (event, cause, result) *)
Inductive finishes (c : nat) (x : call) : event -> cause -> result -> Prop :=
  | fin_enc (Hraw : is_raw x = false) (Hspc : c_spc x = SReg) : finishes c x (EEncFail c) ByEncode REncErr
  | fin_write (Hspc : c_spc x = SReg) : finishes c x (EWriteFail c) ByWrite RWriteErr
  | fin_oneway (Hspc : c_spc x = SWritten) (Hone : c_oneway x = true) : finishes c x (EOneway c) ByOneway ROneway.

(* the call an event belongs to; ClientLive.owner (C06) is this function written again, convertible (Step_local) *)
Definition owner_of (e : event) : option nat :=
  match e with
  | EReg c | ERawReg c | EEncFail c | EWriteOk c | EWriteFail c | EOneway c | ECtx c | ETake c => Some c
  | ERecv _ | EReadErr _ | EClose => None
  end.

(* The transitions as rules; the invariants' preservation proofs (Step_inv, Step_R3, Step_L2, Step_ok, Step_written,
   Step_noraw) go by induction on them, one bullet per rule in this order.  The hypotheses carry names, so that every
   proof sees them as Hx (the event's own call), Hnew, Hfin, ... alike.
   The rules allow more than `step` does: any event may do nothing (St_idle), and after its event the owner may return
   any result (St_returns), which no invariant reads. *)
Inductive Step (st : state) : event -> state -> Prop :=
  | St_idle e : Step st e st
  | St_reject c x (Hx : nth_error (calls st) c = Some x) (Hraw : is_raw x = false) (Hnew : c_spc x = SNew)
      (Hgone : shutdown st || closing st = true) :
      Step st (EReg c) (updc st c (fun x => set_spc SDone (add_signal Rejected RShutdown x)))
  | St_register e c x s n (Hx : nth_error (calls st) c = Some x) (Hnew : c_spc x = SNew) (Hreg : registers st c x e s n) :
      Step st e (updc (entered st s c n) c (fun x => set_spc SReg (set_seq s x)))
  | St_finish e c x s cz r (Hx : nth_error (calls st) c = Some x) (Hs : c_seq x = Some s) (Hfin : finishes c x e cz r) :
      Step st e (updc (complete_at st s cz r) c (set_spc SDone))
  | St_wrote c x (Hx : nth_error (calls st) c = Some x) (Hspc : c_spc x = SReg) (Hopen : conn_open st = true) :
      Step st (EWriteOk c) (updc (wrote st c) c (set_spc (if c_oneway x then SWritten else SDone)))
  | St_ctx c x k (Hx : nth_error (calls st) c = Some x) (Hwait : is_wait x = true)
      (Hk : plookup k (pending st) = Some c \/ c_kind x = KRaw /\ k = c_rawseq x) :
      Step st (ECtx c) (complete_at st k ByCtx RCtx)
  (* the blocked caller returns, after whatever else the event did: SendRaw at once with the result of a local
     completion, Call and SendRaw with the context's error or with what they take from Done *)
  | St_returns e c r st1 (Hown : owner_of e = Some c) (HS : Step st e st1) : Step st e (updc st1 c (set_ret r))
  | St_push f (Halive : reader_alive st = true) (Hmsg : f_servermsg f = true) (Hchan : chan_registered st = true) :
      Step st (ERecv f) (pushed_to st (f_id f))
  | St_recv f r (Halive : reader_alive st = true) (Hmsg : f_servermsg f = false)
      (Hr : forall c x, plookup (f_seq f) (pending st) = Some c -> nth_error (calls st) c = Some x -> r = interp f x) :
      Step st (ERecv f) (complete_at st (f_seq f) (ByResp f) r)
  | St_readerr eof (Halive : reader_alive st = true) :
      Step st (EReadErr eof) (swept st (closing st) true false ByConn (if eof && closing st then RShutdown else RConnErr))
  | St_close :
      Step st EClose (swept st (if closing st || shutdown st then closing st else true) (shutdown st) (reader_alive st)
                            ByClose RShutdown).

Theorem step_Step st e : Step st e (step st e).
Proof.
  destruct e as [c|c|c|c|c|c|c|c|f|eof|]; cbn [step]; unfold getc;
    try (destruct (nth_error (calls st) c) as [x|] eqn:Hx; [|apply St_idle]).
  - destruct (is_raw x) eqn:Er; [apply St_idle|]. destruct (spc_eqb_spec (c_spc x) SNew) as [Es|]; [|apply St_idle].
    destruct (shutdown st || closing st) eqn:Eg.
    + now apply (St_reject st c x).
    + exact (St_register st _ c x _ _ Hx Es (reg_send st c x Er Eg)).
  - destruct (is_raw x) eqn:Er; [|apply St_idle]. destruct (spc_eqb_spec (c_spc x) SNew) as [Es|]; [|apply St_idle].
    exact (St_register st _ c x _ _ Hx Es (reg_raw st c x Er)).
  - destruct (c_seq x) as [s|] eqn:Hs; [|apply St_idle].
    destruct (is_raw x) eqn:Er; [apply St_idle|]. destruct (spc_eqb_spec (c_spc x) SReg) as [Es|]; [|apply St_idle].
    exact (St_finish st _ c x s _ _ Hx Hs (fin_enc c x Er Es)).
  - destruct (spc_eqb_spec (c_spc x) SReg) as [Es|]; [|apply St_idle].
    pose proof (St_wrote st c x Hx Es) as H. unfold wrote in H. destruct (conn_open st); [exact (H eq_refl)|apply St_idle].
  - destruct (c_seq x) as [s|] eqn:Hs; [|apply St_idle].
    destruct (spc_eqb_spec (c_spc x) SReg) as [Es|]; [|apply St_idle].
    pose proof (St_finish st _ c x s _ _ Hx Hs (fin_write c x Es)) as H.
    destruct (is_raw x); [now apply St_returns|exact H].
  - destruct (c_seq x) as [s|] eqn:Hs; [|apply St_idle].
    destruct (spc_eqb_spec (c_spc x) SWritten) as [Es|]; [|apply St_idle]. destruct (c_oneway x) eqn:Eo; [|apply St_idle].
    pose proof (St_finish st _ c x s _ _ Hx Hs (fin_oneway c x Es Eo)) as H.
    destruct (is_raw x); [now apply St_returns|exact H].
  - destruct (c_kind x) eqn:Ek; [apply St_idle| |].
    + destruct (is_wait x) eqn:Ew; [|apply St_idle]. apply St_returns; [reflexivity|].
      destruct (plookup _ (pending st)) as [c'|] eqn:El; [|apply St_idle].
      destruct (Nat.eqb_spec c' c) as [->|]; [|apply St_idle]. eapply St_ctx; eauto.
    + destruct (is_wait x) eqn:Ew; [|apply St_idle]. cbn [andb].
      destruct (spc_eqb (c_spc x) SDone && negb (c_oneway x)); [|apply St_idle].
      apply St_returns; [reflexivity|]. eapply St_ctx; eauto.
  - destruct (is_wait x) eqn:Ew; [|apply St_idle]. destruct (match c_kind x with KRaw => _ | _ => _ end); [|apply St_idle].
    destruct (c_signals x) as [|[cz r] l] eqn:E; [apply St_idle|]. apply St_returns; [reflexivity|apply St_idle].
  - pose proof (St_push st f) as Hp. unfold pushed_to in Hp.
    destruct (reader_alive st) eqn:Ea; [|apply St_idle]. destruct (f_servermsg f) eqn:Es.
    + destruct (chan_registered st) eqn:Ec; [now apply Hp|apply St_idle].
    + destruct (plookup (f_seq f) (pending st)) as [c'|] eqn:El; [|apply St_idle].
      destruct (nth_error (calls st) c') as [x|] eqn:Hx.
      * apply St_recv; auto. congruence.
      * (* the entry names no call: complete_at then only deletes the entry, whatever r is; RDecodeErr is arbitrary *)
        pose proof (St_recv st f RDecodeErr Ea Es) as H. unfold complete_at in H. rewrite El in H.
        unfold updc in H. rewrite (upd_nth_none _ _ _ Hx) in H.
        apply H. congruence.
  - destruct (reader_alive st) eqn:Ea; [now apply St_readerr|apply St_idle].
  - apply St_close.
Qed.

Theorem run_invariant (P : state -> Prop) : (forall st e st', Step st e st' -> P st -> P st') ->
  forall sched st, P st -> P (run st sched).
Proof.
  intros HP. induction sched as [|e r IH]; intros st H; [exact H|].
  apply IH, (HP st e), H. apply step_Step.
Qed.
