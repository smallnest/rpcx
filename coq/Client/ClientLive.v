(* C05 (ii): no call is left hanging once the connection is gone.  C06: steps of one call are local to it. *)
From Coq Require Import List NArith Arith Bool Lia.
From RPCX Require Import Client.ClientSM Client.ClientProofs.
Import ListNotations.

Definition sig_ne (x : call) : Prop := c_signals x <> [].

Definition gone (st : state) : bool := closing st || shutdown st.

(* registered calls are pending or completed (as long as no registration overwrote another) *)
Definition Reg3 (col : bool) (p : pmap) (cs : list call) : Prop :=
  col = false -> forall c x, nth_error cs c = Some x -> c_spc x <> SNew ->
  (exists k, In (k, c) p) \/ sig_ne x.

Definition R3 (st : state) : Prop := Reg3 (collided st) (pending st) (calls st).

Lemma sig_ne_add cz r x : sig_ne (add_signal cz r x).
Proof. unfold sig_ne. cbn. destruct (c_signals x); discriminate. Qed.

Lemma reg3_upd col p cs c g :
  (forall x, c_signals (g x) = c_signals x) ->
  (forall x, nth_error cs c = Some x -> c_spc x <> SNew \/ c_spc (g x) = c_spc x) ->
  Reg3 col p cs -> Reg3 col p (upd_nth c g cs).
Proof.
  intros Hg Hreg H Hc. refine (each_upd (H Hc) _ _); [auto|].
  intros x Hx HQ Hs. unfold sig_ne. rewrite Hg. apply HQ. destruct (Hreg x Hx); congruence.
Qed.

(* entry by entry: the first entry's call is signalled, the other calls' entries are in the rest of the table (Reg3
   reads no key) *)
Lemma reg3_fail_all col cz r : forall p cs, Reg3 col p cs -> Reg3 col [] (fail_all p cz r cs).
Proof.
  intros p. induction p as [|[k c] p IH]; intros cs H; [exact H|]. apply IH. intros Hc. refine (each_upd (H Hc) _ _).
  - intros j y Hne HQ Hs. destruct (HQ Hs) as [(k' & [[= _ <-]|Hk'])|Hsig]; [congruence|left; eauto|now right].
  - intros; right; apply sig_ne_add.
Qed.

Lemma reg3_register col p cs c s g : Reg3 col p cs -> Reg3 (col || clash s p) (pset s c p) (upd_nth c g cs).
Proof.
  intros H [Hc Hl]%orb_false_iff. unfold clash in Hl. destruct (plookup s p) eqn:El; [discriminate|].
  unfold pset. rewrite (pdel_absent _ _ El). refine (each_upd (H Hc) _ _).
  - intros j y _ HQ Hs. destruct (HQ Hs) as [(k & Hk)|Hsig]; [left; exists k; right; exact Hk|now right].
  - intros x _ _ _. left. exists s. now left.
Qed.

Lemma reg3_reject col p cs c :
  Reg3 col p cs -> Reg3 col p (upd_nth c (fun x => set_spc SDone (add_signal Rejected RShutdown x)) cs).
Proof. intros H Hc. refine (each_upd (H Hc) _ _); [auto|]. intros x _ _ _. right. apply sig_ne_add. Qed.

Lemma R3_complete_at st k cz r :
  Inv (pending st) (calls st) -> R3 st -> R3 (complete_at st k cz r).
Proof.
  intros Hi H. destruct (complete_at_cases st k cz r) as [(_ & ->)|(c & E & ->)]; [exact H|].
  intros Hc. refine (each_upd (H Hc) _ _); [|intros; right; apply sig_ne_add].
  (* another call's entry is not under k *)
  intros j y Hne HQ Hs. destruct (HQ Hs) as [(k' & Hk')|Hsig]; [left|now right].
  exists k'. apply In_pdel. split; [exact Hk'|]. intros ->.
  apply (plookup_In _ _ _ (inv_keys _ _ Hi)) in Hk'. congruence.
Qed.

Theorem Step_R3 st e st' : Step st e st' -> Inv (pending st) (calls st) -> R3 st -> R3 st'.
Proof.
  intros HS Hi H. induction HS.
  - (* St_idle *) exact H.
  - (* St_reject *) apply reg3_reject, H.
  - (* St_register *) apply reg3_register, H.
  - (* St_finish *) apply reg3_upd; [reflexivity| |now apply R3_complete_at]. intros y Hy. left.
    (* completing leaves the sender's state alone, and it had registered *)
    pose proof (obs_complete_at c_spc cz r (fun _ => eq_refl) st s c) as E.
    rewrite (obs_nth Hy), (obs_nth Hx) in E. destruct Hfin; congruence.
  - (* St_wrote *) apply reg3_upd; [reflexivity| |exact H]. intros y Hy. left. cbn in Hy. congruence.
  - (* St_ctx *) now apply R3_complete_at.
  - (* St_returns *) apply reg3_upd; auto.
  - (* St_push *) exact H.
  - (* St_recv *) now apply R3_complete_at.
  - (* St_readerr *) apply reg3_fail_all, H.
  - (* St_close *) apply reg3_fail_all, H.
Qed.

Definition flags (st : state) := (closing st, shutdown st, conn_open st, reader_alive st).

Lemma Step_flags st e st' : Step st e st' ->
  flags st' = flags st \/ conn_open st' = false /\ (e = EClose \/ exists eof, e = EReadErr eof).
Proof.
  (* eauto: the two sweeps, St_returns (by its induction hypothesis) and the rules whose flags are those of st by
     computation; the three completions remain *)
  intros HS. induction HS; eauto; left; apply (complete_at_frame flags); reflexivity.
Qed.

Definition L1 (st : state) : Prop := gone st = true -> conn_open st = false.

Lemma Step_L1 st e st' : Step st e st' -> L1 st -> L1 st'.
Proof.
  intros HS H. unfold L1, gone. destruct (Step_flags _ _ _ HS) as [Hf|He].
  - injection Hf as -> -> -> _. exact H.
  - intros _. apply He.
Qed.

(* gone => every entry still in pending belongs to a call whose write is outstanding *)
Definition L2 (st : state) : Prop :=
  gone st = true -> forall k c, In (k, c) (pending st) ->
  exists x, nth_error (calls st) c = Some x /\ c_spc x = SReg.

Lemma gone_complete_at st k cz r : gone (complete_at st k cz r) = gone st.
Proof. now apply (complete_at_frame gone). Qed.

Lemma L2_same_spc st st' :
  gone st' = gone st -> (forall k c, In (k, c) (pending st') -> In (k, c) (pending st) /\ obs c_spc (calls st') c = obs c_spc (calls st) c) ->
  L2 st -> L2 st'.
Proof.
  intros Eg Hp H Hg k c Hin. destruct (Hp k c Hin) as [Hin' E]. rewrite Eg in Hg.
  destruct (H Hg k c Hin') as (x & Hx & Hs). apply obs_inv. now rewrite E, (obs_nth Hx), Hs.
Qed.

Lemma L2_updc st c g :
  (forall k, ~ In (k, c) (pending st)) \/ (forall x, c_spc (g x) = c_spc x) ->
  L2 st -> L2 (updc st c g).
Proof.
  intros Hc. apply L2_same_spc; [reflexivity|]. intros k c' Hin. split; [exact Hin|]. cbn. destruct Hc as [Hc|Hc].
  - rewrite obs_upd_at. destruct (Nat.eqb_spec c c') as [->|]; [destruct (Hc k Hin)|reflexivity].
  - now apply obs_upd.
Qed.

Lemma L2_complete_at st k cz r : L2 st -> L2 (complete_at st k cz r).
Proof.
  apply L2_same_spc; [apply gone_complete_at|]. intros k' c. rewrite pending_complete_at. intros [Hin _]%In_pdel.
  split; [exact Hin|now apply obs_complete_at].
Qed.

Lemma inv_complete_at' st k cz r : (forall f, cz <> ByResp f) ->
  Inv (pending st) (calls st) -> Inv (pending (complete_at st k cz r)) (calls (complete_at st k cz r)).
Proof. intros Hcz Hi. apply inv_complete_at; [exact Hi|]. intros f Hf. destruct (Hcz f Hf). Qed.

Theorem Step_L2 st e st' : Step st e st' -> Inv (pending st) (calls st) -> L1 st -> L2 st -> L2 st'.
Proof.
  intros HS Hi H1 H. induction HS.
  - (* St_idle *) exact H.
  - (* St_reject: a new call has no entry *)
    apply L2_updc; [|exact H]. left. intros k. eapply inv_new_absent; eauto.
  - (* St_register: the registering call is SReg now; an entry of another call was there before *)
    intros Hg k c' Hin. cbn. rewrite nth_error_upd_nth. destruct (Nat.eqb_spec c c') as [<-|Hne].
    + rewrite Hx. cbn. eauto.
    + destruct Hin as [[= _ <-]|[Hin _]%In_pdel]; [congruence|exact (H Hg k c' Hin)].
  - (* St_finish: the sender's own entry, which can only be under its number, went with the completion *)
    apply L2_updc; [|apply L2_complete_at, H]. left. intros k. rewrite pending_complete_at. intros [Hin Hne]%In_pdel.
    pose proof (inv_pend_seq Hi Hin Hx). congruence.
  - (* St_wrote: a write succeeds on an open connection only *)
    intros Hg. specialize (H1 Hg). congruence.
  - (* St_ctx *) apply L2_complete_at, H.
  - (* St_returns *) apply L2_updc; [right; reflexivity|exact IHHS].
  - (* St_push *) exact H.
  - (* St_recv *) apply L2_complete_at, H.
  - (* St_readerr *) intros _ k c [].
  - (* St_close *) intros _ k c [].
Qed.

Record Live (st : state) : Prop := {
  live_inv : Inv (pending st) (calls st);
  live_l1 : L1 st;
  live_l2 : L2 st;
  live_r3 : R3 st }.

Lemma live_init cs chan : wf_init cs -> Live (init cs chan).
Proof.
  intros Hw. constructor.
  - apply inv_init, Hw.
  - discriminate.
  - discriminate.
  - intros _ c x Hx Hs. destruct Hs. now apply (wf_init_nth cs c x).
Qed.

Lemma Step_live st e st' : Step st e st' -> Live st -> Live st'.
Proof.
  intros HS [H1 H2 H3 H4]. constructor; [eapply Step_inv|eapply Step_L1|eapply Step_L2|eapply Step_R3]; eassumption.
Qed.

Lemma reach_live cs chan sched : wf_init cs -> Live (run (init cs chan) sched).
Proof. intros Hw. apply (run_invariant Live Step_live), live_init, Hw. Qed.

(* no write is outstanding *)
Definition quiescent (st : state) : Prop :=
  forall c x, nth_error (calls st) c = Some x -> c_spc x <> SReg.

(* C05 (ii): once the connection is lost or the client closed, and every started write has returned,
   every call that was started has been completed (exactly once) *)
Theorem live_completes st : Live st ->
  gone st = true -> collided st = false -> quiescent st ->
  forall c x, nth_error (calls st) c = Some x -> c_spc x <> SNew -> length (c_signals x) = 1.
Proof.
  intros [H1 H2 H3 H4] Hg Hc Hq c x Hx Hs.
  pose proof (inv_once _ _ H1 c x Hx) as Hle.
  destruct (H4 Hc c x Hx Hs) as [(k & Hk)|Hne].
  - destruct (H3 Hg k c Hk) as (x' & Hx' & Hs'). destruct (Hq c x' Hx' Hs').
  - unfold sig_ne in Hne. destruct (c_signals x) as [|a [|b l]]; cbn in *; [congruence|reflexivity|lia].
Qed.

Definition owner (e : event) : option nat :=
  match e with
  | EReg c | ERawReg c | EEncFail c | EWriteOk c | EWriteFail c | EOneway c | ECtx c | ETake c => Some c
  | ERecv _ | EReadErr _ | EClose => None
  end.

(* the keys of pending that e may look up or overwrite *)
Definition touch_keys (st : state) (e : event) : list N :=
  match e with
  | EReg _ => [next_seq st]
  | ERawReg c => match getc st c with Some x => [c_rawseq x] | None => [] end
  | EEncFail c | EWriteFail c | EOneway c =>
      match getc st c with Some x => match c_seq x with Some s => [s] | None => [] end | None => [] end
  | ECtx c => match getc st c with
              | Some x => match c_kind x with KRaw => [c_rawseq x] | _ => [] end   (* Call: guarded by identity *)
              | None => [] end
  | ERecv f => [f_seq f]
  | _ => []
  end.

Definition same_for (v : nat) (st st' : state) : Prop :=
  nth_error (calls st') v = nth_error (calls st) v /\
  forall k, In (k, v) (pending st') <-> In (k, v) (pending st).

Lemma same_refl v st : same_for v st st. Proof. split; [reflexivity|tauto]. Qed.
Lemma same_updc v st st1 c g : c <> v -> same_for v st st1 -> same_for v st (updc st1 c g).
Proof.
  intros Hne [H1 H2]. split; [|exact H2]. cbn. rewrite nth_error_upd_nth.
  destruct (Nat.eqb_spec c v); [congruence|exact H1].
Qed.

Lemma same_complete_at v st k cz r :
  Inv (pending st) (calls st) -> plookup k (pending st) <> Some v -> same_for v st (complete_at st k cz r).
Proof.
  intros Hi Hs. destruct (complete_at_cases st k cz r) as [(_ & ->)|(c' & E & ->)]; [apply same_refl|].
  apply same_updc; [congruence|]. split; [reflexivity|]. cbn. intros k'. rewrite In_pdel. split; [tauto|].
  intros Hin. split; [exact Hin|]. intros ->. apply Hs, plookup_In; [apply Hi|exact Hin].
Qed.

Lemma not_under v xv st k :
  Inv (pending st) (calls st) -> nth_error (calls st) v = Some xv -> c_seq xv <> Some k -> plookup k (pending st) <> Some v.
Proof.
  intros Hi Hx Hs E. apply plookup_In in E; [|apply Hi]. exact (Hs (inv_pend_seq Hi E Hx)).
Qed.

Lemma same_entered v xv st c s n :
  Inv (pending st) (calls st) -> nth_error (calls st) v = Some xv -> c <> v -> c_seq xv <> Some s ->
  same_for v st (entered st s c n).
Proof.
  intros Hi Hx Hne Hs. split; [reflexivity|]. cbn. intros k. rewrite In_pdel. split.
  - intros [H|H]; [congruence|tauto].
  - intros Hin. right. split; [exact Hin|]. intros ->. exact (Hs (inv_pend_seq Hi Hin Hx)).
Qed.

(* every transition but the two sweeps leaves alone a call v that is neither the event's owner nor registered under a
   key the event uses *)
Theorem Step_local st e st' v xv :
  Step st e st' -> Inv (pending st) (calls st) -> owner e <> Some v ->
  nth_error (calls st) v = Some xv ->
  (forall k, In k (touch_keys st e) -> c_seq xv <> Some k) ->
  same_for v st st' \/ e = EClose \/ exists eof, e = EReadErr eof.
Proof.
  intros HS Hi Ho Hv Hkeys. unfold touch_keys, getc in Hkeys. induction HS; eauto; left.
  - (* St_idle *) apply same_refl.
  - (* St_reject *) apply same_updc, same_refl. cbn in Ho. congruence.
  - (* St_register: c owns the event, s is the key it uses *)
    assert (c <> v /\ c_seq xv <> Some s) as [Hne Hs].
    { destruct Hreg; cbn in *; (split; [congruence|]); apply Hkeys; rewrite ?Hx; now left. }
    apply same_updc; [exact Hne|]. eapply same_entered; eauto.
  - (* St_finish: likewise *)
    assert (c <> v /\ c_seq xv <> Some s) as [Hne Hs'].
    { destruct Hfin; cbn in *; (split; [congruence|]); apply Hkeys; rewrite Hx, Hs; now left. }
    apply same_updc; [exact Hne|]. apply same_complete_at; [exact Hi|]. eapply not_under; eauto.
  - (* St_wrote *) apply same_updc; [cbn in Ho; congruence|]. exact (same_refl v st).
  - (* St_ctx: a Call's context removes only the call's own entry *)
    cbn in Ho. apply same_complete_at; [exact Hi|].
    destruct Hk as [Hk|[Ek ->]]; [congruence|]. eapply not_under; eauto. apply Hkeys. rewrite Hx, Ek. now left.
  - (* St_returns: an event with an owner is no sweep; Hown speaks of owner_of, which is owner *)
    destruct (IHHS Ho Hkeys) as [IH|[->|[eof ->]]]; [|discriminate..]. apply same_updc; [|exact IH]. intros ->. exact (Ho Hown).
  - (* St_push *) exact (same_refl v st).
  - (* St_recv *) apply same_complete_at; [exact Hi|]. eapply not_under; eauto. apply Hkeys. now left.
Qed.
