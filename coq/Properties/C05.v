(* C05 — Every call completes exactly once, whatever fails and whenever.
   The statements of the property; each follows in a few lines from the general theorems of Client/ClientProofs.v,
   ClientLive.v, ClientOutcome.v and the Pending files or, where the statement says what `step` computes on one event, by
   computing it. *)
From Coq Require Import List NArith Arith Bool.
From RPCX Require Import Client.ClientSM Client.ClientProofs Client.ClientLive Client.ClientOutcome.
From RPCX Require Client.Pending Client.PendingGenProofs.
Import ListNotations.

(* (i) at most once: for every set of calls and EVERY schedule of registrations, encode failures,
   writes, write failures, one-way completions, cancellations, received frames, reader termination
   and Close - every interleaving at the granularity of the client's critical sections - no call is
   ever signalled twice. *)
Theorem C05_never_signalled_twice : forall cs chan sched c x,
  wf_init cs -> nth_error (calls (run (init cs chan) sched)) c = Some x -> length (c_signals x) <= 1.
Proof. intros * Hw. exact (inv_once _ _ (reach_inv cs chan sched Hw) c x). Qed.

(* (ii) never left hanging: once the connection is lost or the client closed, and no write of a
   started call is still outstanding, every started call has been completed - exactly once.
   Premise collided = false: no SendRaw used a caller-chosen sequence number equal to an in-flight one. *)
Theorem C05_no_call_left_hanging : forall cs chan sched,
  wf_init cs ->
  let st := run (init cs chan) sched in
  gone st = true -> collided st = false -> quiescent st ->
  forall c x, nth_error (calls st) c = Some x -> c_spc x <> SNew -> length (c_signals x) = 1.
Proof. intros cs chan sched Hw st. apply live_completes, reach_live, Hw. Qed.

(* (iii) once the connection is lost or the client closed, a new call fails at once with the
   shutdown error and does not touch the pending map *)
Theorem C05_rejected_promptly : forall st c x,
  gone st = true -> nth_error (calls st) c = Some x -> c_kind x <> KRaw -> c_spc x = SNew ->
  pending (step st (EReg c)) = pending st /\
  exists x', nth_error (calls (step st (EReg c))) c = Some x' /\
             c_signals x' = c_signals x ++ [(Rejected, RShutdown)] /\ c_spc x' = SDone.
Proof.
  intros st c x Hg Hx Hk Hs. cbn [step]. unfold getc. rewrite Hx.
  assert (E1 : negb (is_raw x) && spc_eqb (c_spc x) SNew = true).
  { rewrite Hs. destruct (c_kind x) eqn:E; unfold is_raw; rewrite E; cbn; try reflexivity. congruence. }
  rewrite E1. unfold gone in Hg. rewrite orb_comm in Hg. rewrite Hg. cbn.
  split; [reflexivity|]. rewrite nth_error_upd_nth, Nat.eqb_refl, Hx. eexists. split; [reflexivity|].
  split; reflexivity.
Qed.

(* the invariants hold in every reachable state *)
Theorem C05_invariants_reachable : forall sched st, Live st -> Live (run st sched).
Proof. exact (run_invariant Live Step_live). Qed.

(* non-vacuity; the schedule holds the two patterns on which the unrepaired client signalled twice:
   reader termination followed by Close; Close followed by a failing encode *)
Example C05_nonvacuous :
  let cs := [new_call KGo false 0; new_call KGo false 0] in
  map (fun x => map snd (c_signals x))
      (calls (run (init cs false) [EReg 0; EWriteOk 0; EReg 1; EReadErr true; EClose; EEncFail 1; EWriteFail 0]))
  = [[RConnErr]; [RConnErr]].
Proof. vm_compute. reflexivity. Qed.

(* (iv) the same, at the granularity of single statements, about the code as it is now.  Every control-flow path of
   send, SendRaw, call, input and Close is regenerated from client/client.go on every run (tools/gopending2v ->
   Client/PendingGen.v) as a list of operations on client.mutex, client.pending, the *Call variables and the
   shutdown / closing flags; every one of them obeys the discipline of Client/Pending.v: a call is written to or
   completed only by the function it was handed to, before that function registers it, or by the path that looked it
   up AND removed it from the table within one critical section - and then once. *)
Theorem C05_the_client_paths_obey_the_discipline :
  forallb (Pending.scheck false Pending.ainit) PendingGenProofs.all_paths = true /\
  forallb (Pending.scheck true Pending.ainit) PendingGenProofs.strict_paths = true.
Proof. exact (conj PendingGenProofs.all_paths_are_disciplined PendingGenProofs.strict_paths_are_strict). Qed.

(* ... so that any number of goroutines, each running any sequence of these paths (each range loop any number of
   times through any of its bodies), interleaved statement by statement in ANY order, never complete a call twice,
   never touch a nil call, never touch a call that sits in the table and never touch a call another goroutine has
   touched since it left the table (bad = false), and no call's completion count exceeds one. *)
Theorem C05_no_call_completes_twice_under_any_interleaving : forall progs sched,
  (forall t, PendingGenProofs.runs_of PendingGenProofs.all_paths (progs t)) ->
  Pending.bad (Pending.run sched (Pending.start progs)) = false /\
  forall c, Pending.dones (Pending.run sched (Pending.start progs)) c <= 1.
Proof. exact PendingGenProofs.client_goroutines_are_safe. Qed.

(* ... and, SendRaw apart (it registers without looking at the flags and relies on the write to the closed connection
   failing), whenever the mutex is free a client that is closing or shut down has an empty table: no call can be
   registered behind the back of the reader's final sweep or of Close. *)
Theorem C05_no_call_is_left_in_the_table_of_a_client_that_shut_down : forall progs sched,
  (forall t, PendingGenProofs.runs_of PendingGenProofs.strict_paths (progs t)) ->
  let w := Pending.run sched (Pending.start progs) in
  Pending.lock w = None -> Pending.shut w || Pending.closing w = true -> Pending.pend w = [].
Proof. exact PendingGenProofs.client_goroutines_strand_no_call. Qed.

(* (v) the outcome: in every reachable state every completion of every call carries the result that fits what
   completed it - a response: its interpretation; the caller's own context: the context's error; the loss of the
   connection: a connection error (the shutdown error when the client itself is closing); Close: shutdown; a refused
   write: the write error; arguments that cannot be encoded: the encode error; a rejection: shutdown; the one-way
   completion: the one-way result.  No failure is ever reported as something else. *)
Theorem C05_outcomes_fit_their_cause : forall cs chan sched c x cz r,
  wf_init cs -> nth_error (calls (run (init cs chan) sched)) c = Some x -> In (cz, r) (c_signals x) ->
  match cz with
  | ByResp _ => True
  | ByCtx => r = RCtx
  | ByConn => r = RConnErr \/ r = RShutdown
  | ByClose => r = RShutdown
  | ByWrite => r = RWriteErr
  | ByEncode => r = REncErr
  | Rejected => r = RShutdown
  | ByOneway => r = ROneway
  end.
Proof. intros * Hw. exact (ok_fits (reach_ok cs chan sched Hw)). Qed.

(* ... so a call reported successful with a reply was answered by a response carrying its own sequence number whose
   interpretation is that reply; *)
Theorem C05_success_has_its_own_answer : forall cs chan sched c x cz p,
  wf_init cs -> nth_error (calls (run (init cs chan) sched)) c = Some x -> In (cz, ROk p) (c_signals x) ->
  exists f, cz = ByResp f /\ c_seq x = Some (f_seq f) /\ f_servermsg f = false /\ interp f x = ROk p.
Proof. intros * Hw. exact (success_by_own_answer _ _ c x cz p (reach_inv cs chan sched Hw) (reach_ok cs chan sched Hw)). Qed.

(* ... and the success of a call without reply comes from the one-way path alone, which does something only for a call
   whose own frame the transport has accepted (a failed encode or a refused write is never reported as success). *)
Theorem C05_oneway_success_only_after_the_write : forall cs chan sched c,
  wf_init cs ->
  (forall x cz, nth_error (calls (run (init cs chan) sched)) c = Some x -> In (cz, ROneway) (c_signals x) -> cz = ByOneway) /\
  (step (run (init cs chan) sched) (EOneway c) <> run (init cs chan) sched -> In c (wire_out (run (init cs chan) sched))).
Proof.
  intros cs chan sched c Hw. split.
  - intros x cz. exact (oneway_by_oneway_path _ _ c x cz (reach_inv cs chan sched Hw) (reach_ok cs chan sched Hw)).
  - exact (oneway_enabled_written _ c (reach_written cs chan sched Hw)).
Qed.

(* ... stated over whole histories: as long as nobody uses SendRaw (whose callers choose their own sequence numbers - the
   one-way path completes whatever stands under its number, see a_reused_number_inherits_the_oneway_result), in every
   reachable state a call that was given the one-way result is a call whose own frame the transport accepted. *)
Theorem C05_oneway_success_was_written : forall cs chan sched c x r,
  wf_init cs -> Forall (fun x => c_kind x <> KRaw) cs ->
  nth_error (calls (run (init cs chan) sched)) c = Some x -> In (ByOneway, r) (c_signals x) ->
  In c (wire_out (run (init cs chan) sched)).
Proof. intros * Hw Hk Hx Hin. exact (logs_In _ _ c x _ (nr_sent _ (reach_noraw cs chan sched Hw Hk)) Hx Hin eq_refl). Qed.

Example C05_outcome_nonvacuous :
  let cs := [new_call KGo true 0; new_call KGo true 0; new_call KCall false 0] in
  map (fun x => c_signals x)
      (calls (run (init cs false) [EReg 0; EWriteOk 0; EOneway 0; EReg 1; EWriteFail 1; EOneway 1; EReg 2; EEncFail 2]))
  = [[(ByOneway, ROneway)]; [(ByWrite, RWriteErr)]; [(ByEncode, REncErr)]].
Proof. vm_compute. reflexivity. Qed.

Print Assumptions C05_never_signalled_twice.
Print Assumptions C05_no_call_left_hanging.
Print Assumptions C05_rejected_promptly.
Print Assumptions C05_invariants_reachable.
Print Assumptions C05_the_client_paths_obey_the_discipline.
Print Assumptions C05_no_call_completes_twice_under_any_interleaving.
Print Assumptions C05_no_call_is_left_in_the_table_of_a_client_that_shut_down.
Print Assumptions C05_outcomes_fit_their_cause.
Print Assumptions C05_success_has_its_own_answer.
Print Assumptions C05_oneway_success_only_after_the_write.
Print Assumptions C05_oneway_success_was_written.
