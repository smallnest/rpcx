(* C01 — Wire codec round-trip: encode then decode is the identity; header setters/getters.
   The statements of the property; each follows in a few lines from the general theorems of
   Wire/HeaderGenProofs.v and Wire/EncodeProofs.v. *)
From Coq Require Import List NArith.
From RPCX Require Import Wire.Bytes Wire.Codec Wire.CodecRoundTrip Wire.StreamProofs Wire.EncodeProofs Wire.HeaderGenProofs.
Import ListNotations.
Open Scope N_scope.

(* ---- (1) accessor laws, about the definitions regenerated from protocol/message.go ----
   gview h = everything the getters can observe (plus the magic byte and the reserved nibble).
   Each setter yields the same view with exactly its own field replaced by the value set. *)
Theorem C01_SetVersion : forall h v, wf_header h -> v < 256 ->
  gview (HeaderGen.SetVersion h v) =
    let w := gview h in mkView (v_magic w) v (v_type w) (v_hb w) (v_ow w) (v_compress w) (v_status w)
                          (v_serialize w) (v_reserved w) (v_seq w).
Proof. intros h v [Hl _]. now apply SetVersion_law. Qed.

Theorem C01_SetMessageType : forall h v, wf_header h -> v < 2 ->
  gview (HeaderGen.SetMessageType h v) =
    let w := gview h in mkView (v_magic w) (v_version w) v (v_hb w) (v_ow w) (v_compress w) (v_status w)
                          (v_serialize w) (v_reserved w) (v_seq w).
Proof. intros h v [Hl _]. now apply SetMessageType_law. Qed.

Theorem C01_SetHeartbeat : forall h hb, wf_header h ->
  gview (HeaderGen.SetHeartbeat h hb) =
    let w := gview h in mkView (v_magic w) (v_version w) (v_type w) hb (v_ow w) (v_compress w) (v_status w)
                          (v_serialize w) (v_reserved w) (v_seq w).
Proof. intros h hb [Hl _]. now apply SetHeartbeat_law. Qed.

Theorem C01_SetOneway : forall h ow, wf_header h ->
  gview (HeaderGen.SetOneway h ow) =
    let w := gview h in mkView (v_magic w) (v_version w) (v_type w) (v_hb w) ow (v_compress w) (v_status w)
                          (v_serialize w) (v_reserved w) (v_seq w).
Proof. intros h ow [Hl _]. now apply SetOneway_law. Qed.

Theorem C01_SetCompressType : forall h v, wf_header h -> v < 8 ->
  gview (HeaderGen.SetCompressType h v) =
    let w := gview h in mkView (v_magic w) (v_version w) (v_type w) (v_hb w) (v_ow w) v (v_status w)
                          (v_serialize w) (v_reserved w) (v_seq w).
Proof. intros h v [Hl _]. now apply SetCompressType_law. Qed.

Theorem C01_SetMessageStatusType : forall h v, wf_header h -> v < 4 ->
  gview (HeaderGen.SetMessageStatusType h v) =
    let w := gview h in mkView (v_magic w) (v_version w) (v_type w) (v_hb w) (v_ow w) (v_compress w) v
                          (v_serialize w) (v_reserved w) (v_seq w).
Proof. intros h v [Hl _]. now apply SetMessageStatusType_law. Qed.

Theorem C01_SetSerializeType : forall h v, wf_header h -> v < 16 ->
  gview (HeaderGen.SetSerializeType h v) =
    let w := gview h in mkView (v_magic w) (v_version w) (v_type w) (v_hb w) (v_ow w) (v_compress w) (v_status w)
                          v (v_reserved w) (v_seq w).
Proof. intros h v [Hl _]. now apply SetSerializeType_law. Qed.

Theorem C01_SetSeq : forall h s, wf_header h -> s < 18446744073709551616 ->
  gview (HeaderGen.SetSeq h s) =
    let w := gview h in mkView (v_magic w) (v_version w) (v_type w) (v_hb w) (v_ow w) (v_compress w) (v_status w)
                          (v_serialize w) (v_reserved w) s.
Proof. intros h v [Hl _]. now apply SetSeq_law. Qed.

(* the regenerated accessors and the hand-written header model used by the codec agree *)
Theorem C01_generated_getters_agree : forall h, wf_header h -> gview h = hview_of h.
Proof. intros h _. apply getters_agree. Qed.

(* ---- (2) the pooled encoder overwrites every byte of its buffer; both encoders emit the frame ---- *)
Theorem C01_pooled_encoder_is_frame : forall env garbage m,
  length (header_on_wire env m) = 12%nat -> lenN garbage = encode_len env m ->
  encode_pooled env garbage m =
    frame_of (header_on_wire env m) (m_path m) (m_meth m) (enc_meta (m_meta m)) (payload_on_wire env m).
Proof. exact encode_pooled_is_frame. Qed.

Theorem C01_encoders_agree : forall env garbage m,
  hdr_ok (m_hdr m) -> comp_ok env m -> lenN garbage = encode_len env m ->
  encode_pooled env garbage m = fst (encode_stream env m).
Proof.
  intros env garbage m Hh Hc Hg. rewrite encode_pooled_frame_bytes by assumption. now rewrite encode_stream_frame_bytes.
Qed.

(* ---- (3) round trip, for every message within the 32-bit length fields, every registered
   compressor that inverts on this payload, every previous state of the receiving object, every
   old content of the pooled buffer, any bytes following the frame ---- *)
Theorem C01_roundtrip_pooled : forall env maxlen old garbage m rest,
  hdr_ok (m_hdr m) -> msg_ok env m -> comp_ok env m ->
  encode_len env m < 16 + U32 -> (maxlen = 0 \/ encode_len env m <= 16 + maxlen) ->
  lenN garbage = encode_len env m ->
  let r := decode env maxlen old (encode_pooled env garbage m ++ rest) in
  out_msg (fst r) = Ok m /\ snd r = rest.
Proof.
  intros env maxlen old garbage m rest Hh Hok Hc Hlen Hmax Hg. rewrite encode_pooled_frame_bytes by assumption.
  now apply roundtrip_frame, frame_ok_of_len.
Qed.

Theorem C01_roundtrip_stream : forall env maxlen old m rest,
  hdr_ok (m_hdr m) -> msg_ok env m -> comp_ok env m ->
  encode_len env m < 16 + U32 -> (maxlen = 0 \/ encode_len env m <= 16 + maxlen) ->
  snd (encode_stream env m) = None /\
  let r := decode env maxlen old (fst (encode_stream env m) ++ rest) in
  out_msg (fst r) = Ok m /\ snd r = rest.
Proof.
  intros env maxlen old m rest Hh Hok Hc Hlen Hmax.
  rewrite encode_stream_frame_bytes by exact Hc. split; [reflexivity|].
  now apply roundtrip_frame, frame_ok_of_len.
Qed.

(* non-vacuity: a concrete message with metadata round-trips through a pooled buffer full of old bytes *)
Definition ex_env : comp_env := fun _ => None.
Definition ex_msg : message :=
  mkMsg [8; 1; 0; 32; 0; 0; 0; 0; 0; 0; 0; 7] [65; 66] [77] [([107], [118; 118]); ([], [])] [1; 2; 3].
Example C01_nonvacuous :
  fst (decode ex_env 0 fresh_obj (encode_pooled ex_env (repeat 255 57) ex_msg)) =
    Ok (mkObj ex_msg (skipn 16 (encode_pooled ex_env (repeat 255 57) ex_msg))).
Proof. vm_compute. reflexivity. Qed.

Print Assumptions C01_SetVersion.
Print Assumptions C01_SetMessageType.
Print Assumptions C01_SetHeartbeat.
Print Assumptions C01_SetOneway.
Print Assumptions C01_SetCompressType.
Print Assumptions C01_SetMessageStatusType.
Print Assumptions C01_SetSerializeType.
Print Assumptions C01_SetSeq.
Print Assumptions C01_generated_getters_agree.
Print Assumptions C01_pooled_encoder_is_frame.
Print Assumptions C01_encoders_agree.
Print Assumptions C01_roundtrip_pooled.
Print Assumptions C01_roundtrip_stream.
