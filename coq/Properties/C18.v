(* C18 — Circuit breaker opens after N consecutive failures and recovers.
   The statements of the property; each follows in a few lines from the general theorems of
   XClient/BreakerProofs.v.
   Reading fixed in DESIGN.md: an observation (Ready/Call) made after the window has elapsed clears
   the failure count just as a success does ("one success or an elapsed window closes it again"). *)
From Coq Require Import List ZArith Bool Lia.
From RPCX Require Import XClient.Breaker XClient.BreakerProofs.
Import ListNotations.
Open Scope Z_scope.

(* For every timed trace, every threshold and window: the breaker's answers are exactly those of the
   trace specification - Ready reports "not open", Call invokes the protected function iff not open
   and otherwise refuses - where open (is_open) is defined on the history alone: at least threshold
   failures since the most recent success / elapsed-window observation, and the window since the
   most recent failure has not elapsed. *)
Theorem C18_machine_meets_trace_spec : forall c tr,
  b_run c b_init tr = (st_of c (rev tr), outs_spec c [] tr).
Proof. intros c tr. rewrite <- (app_nil_r (rev tr)). apply (run_spec c tr []). Qed.

Theorem C18_refused_call_changes_nothing : forall c h t ok t',
  is_open c h t = true -> st_of c (ECall t ok t' :: h) = st_of c h.
Proof.
  intros c h t ok t'. rewrite is_open_ltb. unfold st_of. cbn [touch fails_aux].
  destruct (window c <? t - touch c h), (fails_aux c h <? threshold c); easy.
Qed.

Theorem C18_threshold_failures_open : forall c h t0 ts t,
  threshold c <= Z.of_nat (length (t0 :: ts)) -> 0 <= fails_aux c h -> t - t0 <= window c ->
  is_open c (map EFail (t0 :: ts) ++ h) t = true.
Proof. intros c h t0 ts t Hk _. apply threshold_failures_open, Hk. Qed.

Theorem C18_success_closes : forall c h t0 t, 0 < threshold c -> is_open c (ESuccess t0 :: h) t = false.
Proof.
  intros c h t0 t H. unfold is_open. cbn [fails_aux]. destruct (Z.leb_spec (threshold c) 0); [lia|reflexivity].
Qed.

Theorem C18_elapsed_window_closes : forall c h t, window c < t - touch c h -> is_open c h t = false.
Proof.
  intros c h t H. unfold is_open. destruct (Z.leb_spec (t - touch c h) (window c)); [lia|]. apply andb_false_r.
Qed.

(* discovery client: while a server's breaker is open no dial happens; each refused dial counts *)
Theorem C18_xclient_open_breaker_skips_dial : forall c s t ok,
  xb_exists s = true -> threshold c <= b_failures (xb_b s) -> t - b_last (xb_b s) <= window c ->
  xb_dial c s t ok = (s, DialSkipped).
Proof.
  intros c s t ok He Hf Ht. unfold xb_dial, b_ready. rewrite He.
  destruct (Z.ltb_spec (window c) (t - b_last (xb_b s))); [lia|].
  destruct (Z.ltb_spec (b_failures (xb_b s)) (threshold c)); [lia|].
  destruct s; cbn in *; subst; reflexivity.
Qed.

Theorem C18_xclient_refused_dial_counts : forall c s t,
  (xb_exists s = false \/ b_failures (xb_b s) < threshold c \/ window c < t - b_last (xb_b s)) ->
  exists s', xb_dial c s t false = (s', Dialed false) /\ xb_exists s' = true /\ b_last (xb_b s') = t /\
             (xb_exists s = true -> t - b_last (xb_b s) <= window c ->
              b_failures (xb_b s') = b_failures (xb_b s) + 1).
Proof.
  intros c s t H. rewrite (xb_dial_attempted c s t false H). eexists. split; [reflexivity|].
  cbn [xb_exists xb_b b_fail b_last b_failures]. split; [reflexivity|]. split; [reflexivity|].
  intros He Hw. rewrite He. destruct (Z.ltb_spec (window c) (t - b_last (xb_b s))); [lia|reflexivity].
Qed.

(* non-vacuity: threshold 2, window 100: two failing calls open it, a call 60 later is refused,
   a call 150 after the last failure is let through *)
Example C18_nonvacuous :
  snd (b_run (mkCfg 2 100) b_init
         [ECall 1000 false 1001; ECall 1060 false 1061; ECall 1120 true 1121; ECall 1212 true 1213]) =
  [OInvoked false; OInvoked false; ORefused; OInvoked true].
Proof. reflexivity. Qed.

Print Assumptions C18_machine_meets_trace_spec.
Print Assumptions C18_refused_call_changes_nothing.
Print Assumptions C18_threshold_failures_open.
Print Assumptions C18_success_closes.
Print Assumptions C18_elapsed_window_closes.
Print Assumptions C18_xclient_open_breaker_skips_dial.
Print Assumptions C18_xclient_refused_dial_counts.
