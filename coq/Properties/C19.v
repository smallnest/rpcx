(* C19 — HTTP gateway and JSON-RPC ingress are equivalent to the native protocol.
   The statements of the property; each follows in a few lines from the general theorems of Server/IngressProofs.v
   and Server/GatewayProofs.v.  Quantifier (DESIGN.md): services registered with
   Register* / RegisterFunction*; router handlers (AddHandler) write to the native connection and
   cannot be reached from the HTTP ingresses. *)
From Coq Require Import List NArith Bool Lia.
From RPCX Require Import Server.Dispatch Server.Ingress Server.IngressProofs Server.Gateway Server.GatewayProofs.
Import ListNotations.

(* a two-way request that no stage rejects yields, through the HTTP gateway and through JSON-RPC, the
   outcome it yields natively - the same reply payload or the same error text - and runs the same
   handler: all three front ends call the same handleRequest *)
Theorem C19_http_ingress_equals_native : forall find codec_ok decodable handler hmeta ing c rq,
  ing <> Native ->
  rejected ing c rq = false -> q_hb (i_q rq) = false -> q_oneway (i_q rq) = false ->
  find (q_path (i_q rq)) (q_meth (i_q rq)) <> TRouter ->
  o_out (serve find codec_ok decodable handler hmeta ing c rq) = o_out (serve find codec_ok decodable handler hmeta Native c rq) /\
  o_invoked (serve find codec_ok decodable handler hmeta ing c rq) = o_invoked (serve find codec_ok decodable handler hmeta Native c rq).
Proof. intros. now rewrite (http_serve_is_native find codec_ok decodable handler hmeta ing c rq). Qed.

(* malformed gateway requests (missing service / method / serialization headers, non-numeric id or
   type, unparsable metadata) and malformed JSON-RPC methods are rejected with an error and never
   reach a handler *)
Theorem C19_malformed_rejected : forall find codec_ok decodable handler hmeta ing c rq,
  ing <> Native -> i_malformed rq = true ->
  o_invoked (serve find codec_ok decodable handler hmeta ing c rq) = [] /\
  is_result (o_out (serve find codec_ok decodable handler hmeta ing c rq)) = false.
Proof.
  intros * Hi Hm.
  assert (H : rejected Gateway c rq = true) by (unfold rejected; rewrite Hm, orb_true_r; reflexivity).
  destruct ing; [congruence | apply http_like_kept_out, H | apply jsonrpc_kept_out, http_like_kept_out, H].
Qed.

(* ---- header level (Server/Gateway.v: HTTPRequest2RpcxRequest, the header checks of handleGatewayRequest, the
   method split of handleJSONRPCRequest, with strconv.ParseUint / Atoi and url.ParseQuery / QueryEscape modelled) ---- *)

(* "executed with the same service, method, metadata and payload": for every request - every sequence number below
   2^64, every serialize and compress type, every service path and method (any bytes), every metadata map (any
   keys and values, any bytes) and every payload - what the gateway builds from the headers a client sends for it is
   that request. *)
Theorem C19_gateway_builds_the_request_that_was_sent : forall q url body,
  wf_greq q -> g_path q <> [] -> g_meth q <> [] ->
  gateway_front (to_http q) url body =
  Some (mkGReq (g_seq q) (g_hb q) (g_oneway q) (g_ser q) (g_comp q) (g_meta q) (g_path q) (g_meth q) body).
Proof.
  intros q url body Hwf Hp Hm. apply gateway_front_spec.
  rewrite (match_nonempty _ _ _ (fun p => p)) by exact Hp.
  repeat split; [exact Hp | exact Hm | apply to_dec_nonempty | exact (http_round_trip q body Hwf)].
Qed.

(* the query-string encoding of metadata is inverted exactly (url.Values.Encode then url.ParseQuery) *)
Theorem C19_metadata_query_round_trip : forall kvs, Forall wf_kv kvs -> parse_query (encode_query kvs) = (kvs, false).
Proof. exact parse_query_encode. Qed.

(* malformed gateway requests: a missing method or serialize-type header, no service path in header or URL,
   an id that is not a decimal number below 2^64, a serialize type that is not an integer, metadata that does
   not parse - each is rejected before any plugin, authentication or handler sees it *)
Theorem C19_gateway_rejects_missing_method : forall h url body, h_meth h = [] -> gateway_front h url body = None.
Proof. intros h url body H. apply gateway_front_none. now right; left. Qed.
Theorem C19_gateway_rejects_missing_serialize_type : forall h url body, h_ser h = [] -> gateway_front h url body = None.
Proof. intros h url body H. apply gateway_front_none. now right; right; left. Qed.
Theorem C19_gateway_rejects_missing_path : forall h url body,
  h_path h = [] -> trim_slash url = [] -> gateway_front h url body = None.
Proof. intros h url body H1 H2. apply gateway_front_none. left. now rewrite H1. Qed.
Theorem C19_gateway_rejects_non_numeric_id : forall h url body,
  h_id h <> [] -> parse_uint64 (h_id h) = None -> gateway_front h url body = None.
Proof.
  intros h url body Hne H. apply gateway_front_none. do 3 right; left.
  unfold hdr_uint. now rewrite nonempty_case.
Qed.
Theorem C19_an_id_that_parses_is_decimal : forall s v,
  parse_uint64 s = Some v -> s <> [] /\ forallb is_digit s = true /\ v < 18446744073709551616.
Proof.
  intros s v H. unfold parse_uint64 in H. destruct s as [|c r]; [discriminate|].
  destruct (digits_val 0 (c :: r)) as [w|] eqn:E; [|discriminate].
  destruct (N.ltb_spec w 18446744073709551616); [|discriminate].
  injection H as <-. repeat split; [discriminate | eapply digits_val_all_digits; exact E | assumption].
Qed.
Theorem C19_gateway_rejects_non_numeric_type : forall h url body,
  h_ser h <> [] -> atoi (h_ser h) = None -> gateway_front h url body = None.
Proof.
  intros h url body Hne H. apply gateway_front_none. do 4 right; left.
  unfold hdr_int. now rewrite nonempty_case.
Qed.
Theorem C19_gateway_rejects_unparsable_metadata : forall h url body,
  h_meta h <> [] -> snd (parse_query (h_meta h)) = true -> gateway_front h url body = None.
Proof.
  intros h url body Hne H. apply gateway_front_none. do 6 right.
  unfold hdr_meta. rewrite nonempty_case by exact Hne.
  destruct (parse_query _) as [kvs err]. cbn [snd] in H. now rewrite H.
Qed.

(* composed with the ingress model: a request the header checks reject runs no handler and yields no result *)
Theorem C19_header_level_malformed_never_reaches_a_handler :
  forall find codec_ok decodable handler hmeta c h url body tok q0,
  gateway_front h url body = None ->
  let rq := mkIRq tok (match gateway_front h url body with None => true | Some _ => false end) q0 in
  o_invoked (serve find codec_ok decodable handler hmeta Gateway c rq) = [] /\
  is_result (o_out (serve find codec_ok decodable handler hmeta Gateway c rq)) = false.
Proof.
  intros find codec_ok decodable handler hmeta c h url body tok q0 H. rewrite H.
  apply C19_malformed_rejected; [discriminate | reflexivity].
Qed.

(* what is forwarded is what was sent *)
Theorem C19_gateway_forwards_what_was_sent : forall h url body q,
  gateway_front h url body = Some q ->
  g_path q = (match h_path h with [] => trim_slash url | p => p end) /\ g_path q <> [] /\
  g_meth q = h_meth h /\ g_meth q <> [] /\ h_ser h <> [] /\ g_payload q = body.
Proof.
  intros h url body q E. apply gateway_front_spec in E as (Hp & Hm & Hs & E).
  apply http_to_req_some in E as (seq & st & ct & meta & _ & _ & _ & _ & ->). now repeat split.
Qed.

(* JSON-RPC: "service.path.Method" is split at its last dot - the service path may contain dots - and a method
   name without a dot, or whose only dot comes first, is rejected *)
Theorem C19_jsonrpc_split_at_last_dot : forall p m, p <> [] -> has_byte 46 m = false ->
  jsonrpc_split (p ++ 46 :: m) = Some (p, m).
Proof.
  intros p m Hp Hm. unfold jsonrpc_split. rewrite (last_dot_app p m Hm). destruct (firstn_skipn_at p 46 m) as [E1 E2].
  destruct p as [|c p]; [contradiction|]. cbn [length] in *. now rewrite E1, E2.
Qed.
Theorem C19_jsonrpc_rejects_no_service : forall s,
  has_byte 46 s = false \/ (exists m, s = 46 :: m /\ has_byte 46 m = false) -> jsonrpc_split s = None.
Proof.
  intros s [H|[m [-> H]]]; unfold jsonrpc_split.
  - apply last_dot_none in H. now rewrite H.
  - pose proof (last_dot_app [] m H) as E. cbn [app length] in E. now rewrite E.
Qed.

(* non-vacuity: seq 2^64-1, type 4, metadata with separators, blanks and non-ASCII bytes in keys and values *)
Example C19_header_level_nonvacuous :
  let q := mkGReq 18446744073709551615 false true 4 1 [([97;38;61], [32;195;188;37]); ([98], [])] [65;46;66] [77] [] in
  wf_greq q /\ gateway_front (to_http q) [47] [1;2;3] = Some (mkGReq 18446744073709551615 false true 4 1 (g_meta q) [65;46;66] [77] [1;2;3])
  /\ gateway_front (mkGHdr [120] [] [] [49] [] [] [] [65] [77]) [47] [] = None.
Proof.
  cbv zeta. split.
  - unfold wf_greq. cbn [g_seq g_ser g_comp g_meta]. repeat split; try (vm_compute; reflexivity).
    + repeat constructor; cbn; intuition discriminate.
    + repeat constructor; cbn; lia.
  - split; vm_compute; reflexivity.
Qed.

Print Assumptions C19_http_ingress_equals_native.
Print Assumptions C19_malformed_rejected.
Print Assumptions C19_gateway_builds_the_request_that_was_sent.
Print Assumptions C19_metadata_query_round_trip.
Print Assumptions C19_gateway_rejects_non_numeric_id.
Print Assumptions C19_gateway_rejects_unparsable_metadata.
Print Assumptions C19_header_level_malformed_never_reaches_a_handler.
Print Assumptions C19_gateway_forwards_what_was_sent.
Print Assumptions C19_jsonrpc_split_at_last_dot.
Print Assumptions C19_jsonrpc_rejects_no_service.
