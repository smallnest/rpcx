(* C06 — Calls sharing a connection are isolated from each other.
   The statements of the property; each follows in a few lines from the general theorems of Client/ClientLive.v and, for
   the last, of Client/PendingGenProofs.v. *)
From Coq Require Import List NArith.
From RPCX Require Import Client.ClientSM Client.ClientProofs Client.ClientLive.
From RPCX Require Client.Pending Client.PendingGenProofs.
Import ListNotations.

(* Any step of call a - registering, a failed encoding of its argument, its write or write failure,
   its one-way completion, its cancellation or deadline (before or after registration), its return -
   leaves every other call v exactly as it was: same record (result, signals), same pending entry.
   The only exception is a v registered under a key that a's step uses, which needs a SendRaw with a
   caller-chosen sequence number clashing with another call's. *)
Theorem C06_own_steps_are_local : forall st e a v xv,
  Inv (pending st) (calls st) -> owner e = Some a -> v <> a ->
  nth_error (calls st) v = Some xv ->
  (forall k, In k (touch_keys st e) -> c_seq xv <> Some k) ->
  same_for v st (step st e).
Proof.
  intros * Hi Ho Hva Hx Hk.
  destruct (Step_local st e _ v xv (step_Step st e) Hi) as [H|[->|[eof ->]]]; auto; [congruence|discriminate..].
Qed.

(* A received frame touches only the call registered under its own sequence number, whatever it
   carries (service error, reply of the wrong type, unknown codec). *)
Theorem C06_received_frame_is_local : forall st f v xv,
  Inv (pending st) (calls st) -> nth_error (calls st) v = Some xv -> c_seq xv <> Some (f_seq f) ->
  same_for v st (step st (ERecv f)).
Proof.
  intros * Hi Hx Hs.
  destruct (Step_local st (ERecv f) _ v xv (step_Step st _) Hi) as [H|[[=]|[eof [=]]]]; auto; [discriminate|].
  intros k [<-|[]]. exact Hs.
Qed.

(* No step of a call and no received frame closes the connection or marks the client shut down:
   only the reader's termination (a frame that cannot be decoded, or a transport error) and Close do. *)
Theorem C06_connection_not_torn_down : forall st e,
  match e with EReadErr _ | EClose => True | _ => flags (step st e) = flags st end.
Proof. intros st e. destruct (Step_flags _ _ _ (step_Step st e)) as [H|[_ [->|[eof ->]]]]; [destruct e|..]; auto. Qed.

(* non-vacuity; the schedule holds the two patterns on which the unrepaired client broke isolation: an
   already-cancelled Call (seq cell still 0) next to the first call of the connection; a reply of
   the wrong type next to a call in flight *)
Definition fr6 (id : nat) (s : N) (pl : nat) (dec : bool) : frame := mkFrame id s false false false 0 pl dec true.
Example C06_nonvacuous :
  let cs := [new_call KGo false 0; new_call KCall false 0; new_call KGo false 0] in
  let st := run (init cs false)
      [EReg 0; EWriteOk 0; ECtx 1; EReg 1; EReg 2; EWriteOk 2; ERecv (fr6 5 2 9 false); ERecv (fr6 6 0 7 true)] in
  map (fun x => map snd (c_signals x)) (calls st) = [[ROk 7]; []; [RDecodeErr]] /\
  shutdown st = false /\ conn_open st = true.
Proof. vm_compute. repeat split. Qed.

(* At the granularity of single statements, about the code as it is now (the paths of send, SendRaw, call, input and
   Close regenerated from client/client.go on every run, see C05 (iv)): under ANY interleaving of any number of
   goroutines running these paths, a call's fields are written and the call is completed only by the one goroutine
   that holds it - the function it was handed to until that function registers it, afterwards whoever removed it
   from the table under the mutex; nobody touches a call that sits in the table, a completed call, a nil call, or a
   call somebody else has touched since it left the table (that is what bad records). *)
Theorem C06_a_call_is_touched_only_by_the_goroutine_that_holds_it : forall progs sched,
  (forall t, PendingGenProofs.runs_of PendingGenProofs.all_paths (progs t)) ->
  Pending.bad (Pending.run sched (Pending.start progs)) = false.
Proof. intros progs sched Hp. exact (proj1 (PendingGenProofs.client_goroutines_are_safe progs sched Hp)). Qed.

Print Assumptions C06_own_steps_are_local.
Print Assumptions C06_received_frame_is_local.
Print Assumptions C06_connection_not_torn_down.
Print Assumptions C06_a_call_is_touched_only_by_the_goroutine_that_holds_it.
