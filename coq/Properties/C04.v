(* C04 — Server answers each request exactly once, stamped with its identity.
   The statements of the property; each follows in a few lines from the general theorems of Server/DispatchProofs.v
   and Server/GateProofs.v.  find / codec_ok / decodable / handler are
   universally quantified: every service table, codec set and handler behaviour. *)
From Coq Require Import List NArith Arith Permutation.
From RPCX Require Import Server.Dispatch Server.DispatchProofs Server.Gate Server.GateProofs.
Import ListNotations.

Theorem C04_two_way_exactly_one_stamped : forall find codec_ok decodable handler hmeta q,
  q_hb q = false -> q_oneway q = false ->
  exists r, fst (process find codec_ok decodable handler hmeta q) = [r] /\ stamped q r.
Proof. exact two_way_exactly_one. Qed.

Theorem C04_one_way_no_response : forall find codec_ok decodable handler hmeta q,
  q_hb q = false -> q_oneway q = true -> fst (process find codec_ok decodable handler hmeta q) = [].
Proof. intros * Hh Ho. now rewrite process_answer, Ho by exact Hh. Qed.

Theorem C04_heartbeat_echo : forall find codec_ok decodable handler hmeta q, q_hb q = true ->
  process find codec_ok decodable handler hmeta q = ([base q SNormal None (q_args q)], []).
Proof. intros * H. unfold process. now rewrite H. Qed.

(* any interleaving of reads and completions on any number of connections: a frame written on a
   connection answers a request that was read on that very connection *)
Theorem C04_frames_answer_own_connection : forall find codec_ok decodable handler hmeta es c f,
  In (c, f) (written (crun find codec_ok decodable handler hmeta cinit es)) ->
  exists rid q, In (CRead c rid q) es /\ In f (fst (process find codec_ok decodable handler hmeta q)).
Proof.
  intros * H. rewrite crun_is_grun in H.
  destruct (G_written (ginv_of_run _ _ _ _ _ _ _ es) c f H) as (rid & q & Hr & Hf). exists rid, q.
  now rewrite admitted_is_processed in Hf by apply refusal_none.
Qed.

(* every completion order: what was written is, in completion order, each request's own frames on
   its own connection - each exactly once *)
Theorem C04_completed_requests_written_once : forall find codec_ok decodable handler hmeta l order,
  NoDup (map (fun x => fst (fst x)) l) -> Permutation order l ->
  written (crun find codec_ok decodable handler hmeta cinit (reads l ++ map (fun x => CDone (fst (fst x))) order))
  = flat_map (frames_of find codec_ok decodable handler hmeta) order.
Proof. intros * Hnd Hp. rewrite crun_app, crun_reads. now apply completions_written. Qed.

(* a request refused by a pre-call plugin still gets exactly one answer (the plugin's text) and runs no handler *)
Theorem C04_precall_refusal_answered_once_no_handler : forall find codec_ok decodable handler hmeta q t,
  q_hb q = false -> (find (q_path q) (q_meth q) = TMethod \/ find (q_path q) (q_meth q) = TFunction) ->
  handler (q_path q) (q_meth q) (q_args q) = HVeto t ->
  snd (process find codec_ok decodable handler hmeta q) = [] /\
  (q_oneway q = false -> codec_ok (q_ser q) = true -> decodable (q_ser q) (q_args q) = true ->
   fst (process find codec_ok decodable handler hmeta q) = [err_resp q (XExact t)]).
Proof.
  intros * Hh Hf Hv. destruct (veto_answer find codec_ok decodable handler hmeta q t Hf Hv) as [Hr Ha].
  rewrite process_answer, Hr by exact Hh. split; [reflexivity|]. intros -> Hc Hd. now rewrite Ha.
Qed.

Example C04_nonvacuous :
  let find := fun p m => if Nat.eqb p 1 then TMethod else TNoService in
  let handler := fun p m a => HReply (a * 10) in
  let q1 := mkReq 7 1 1 1 false false 3 in let q2 := mkReq 7 2 1 1 false false 4 in
  map (fun cf => (fst cf, r_seq (snd cf), r_payload (snd cf), r_err (snd cf)))
      (written (crun find (fun _ => true) (fun _ _ => true) handler (fun _ _ _ => [(5, 6)]) cinit [CRead 0 0 q1; CRead 1 1 q2; CDone 1; CDone 0]))
  = [(1, 7%N, 0, Some (XNoService 2)); (0, 7%N, 30, None)].
Proof. reflexivity. Qed.

(* The connection loop in front of the dispatch (Server/Gate.v): a request that a PostReadRequest plugin (the rate
   limiters) or AuthFunc refuses is answered by the reader itself - exactly once if it is two-way: an error frame that
   carries the refuser's text and the request's own sequence number, path, method and serialisation - and runs no
   handler; a refused one-way request produces no frame. *)
Theorem C04_refused_request_answered_once_stamped : forall find codec_ok decodable handler hmeta limited denied q t cl,
  refusal limited denied q = Some (t, cl) -> q_oneway q = false ->
  exists r, serve find codec_ok decodable handler hmeta limited denied q = ([r], []) /\ stamped q r /\
            r_status r = SError /\ r_err r = Some (XExact t) /\ r_hb r = q_hb q /\ r_payload r = 0.
Proof.
  intros * Hr Ho. rewrite (serve_refused _ _ _ _ _ _ _ q t cl Hr). unfold refusal_frames. rewrite Ho.
  eexists. repeat split.
Qed.

Theorem C04_refused_one_way_request_is_silent : forall find codec_ok decodable handler hmeta limited denied q t cl,
  refusal limited denied q = Some (t, cl) -> q_oneway q = true ->
  serve find codec_ok decodable handler hmeta limited denied q = ([], []).
Proof. intros * Hr Ho. rewrite (serve_refused _ _ _ _ _ _ _ q t cl Hr). unfold refusal_frames. now rewrite Ho. Qed.

(* refused or not: every two-way request gets exactly one stamped frame, every one-way request none *)
Theorem C04_served_two_way_exactly_one_stamped : forall find codec_ok decodable handler hmeta limited denied q,
  q_hb q = false -> q_oneway q = false ->
  exists r, fst (serve find codec_ok decodable handler hmeta limited denied q) = [r] /\ stamped q r.
Proof.
  intros * Hh Ho. rewrite serve_frames, Ho by exact Hh. eexists. split; [reflexivity|apply served_answer_stamped].
Qed.

Theorem C04_served_one_way_no_response : forall find codec_ok decodable handler hmeta limited denied q,
  q_hb q = false -> q_oneway q = true -> fst (serve find codec_ok decodable handler hmeta limited denied q) = [].
Proof. intros * Hh Ho. now rewrite serve_frames, Ho. Qed.

(* any interleaving of reads (with refusals answered by the reader, and connections closed by a failed
   authentication no longer read) and completions: a frame written on a connection answers a request read on it *)
Theorem C04_served_frames_answer_own_connection : forall find codec_ok decodable handler hmeta limited denied es c f,
  In (c, f) (written (gbase (grun find codec_ok decodable handler hmeta limited denied ginit es))) ->
  exists rid q, In (CRead c rid q) es /\ In f (fst (serve find codec_ok decodable handler hmeta limited denied q)).
Proof. intros *. apply (G_written (ginv_of_run find codec_ok decodable handler hmeta limited denied es)). Qed.

Example C04_gate_nonvacuous :
  let find := fun p m => TMethod in
  let handler := fun p m a => HReply (a * 10) in
  let limited := fun p m a => if Nat.eqb a 3 then Some 902 else None in
  let denied := fun p m a => if Nat.eqb a 5 then Some 903 else None in
  let q a ow hb := mkReq 7 1 1 1 hb ow a in
  let st := grun find (fun _ => true) (fun _ _ => true) handler (fun _ _ _ => []) limited denied ginit
      [CRead 0 0 (q 3 false false); CRead 0 1 (q 4 false false); CRead 0 2 (q 3 true false); CRead 1 3 (q 5 false true);
       CRead 1 4 (q 5 false false); CRead 1 5 (q 4 false false); CDone 1] in
  map (fun cf => (fst cf, r_payload (snd cf), r_err (snd cf))) (written (gbase st))
  = [(0, 0, Some (XExact 902)); (1, 0, Some (XExact 903)); (0, 40, None)]
  /\ gclosed st = [1] /\ invoked (gbase st) = [(1, 1, 4)].
Proof. vm_compute. repeat split. Qed.

Print Assumptions C04_two_way_exactly_one_stamped.
Print Assumptions C04_one_way_no_response.
Print Assumptions C04_heartbeat_echo.
Print Assumptions C04_frames_answer_own_connection.
Print Assumptions C04_completed_requests_written_once.
Print Assumptions C04_precall_refusal_answered_once_no_handler.
Print Assumptions C04_refused_request_answered_once_stamped.
Print Assumptions C04_refused_one_way_request_is_silent.
Print Assumptions C04_served_two_way_exactly_one_stamped.
Print Assumptions C04_served_one_way_no_response.
Print Assumptions C04_served_frames_answer_own_connection.
