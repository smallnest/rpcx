(* C10 — Fail-mode contract: bounded attempts, no re-execution, truthful result.
   The statements of the property; each follows in a few lines from the general theorems of
   XClient/FailModeProofs.v and XClient/BackupProofs.v, but for C10_backup_second_only_after_latency, which
   unfolds xcall_backup.  The model (XClient/FailMode.v) mirrors the
   switch arms of xClient.Call, which xClient.SendRaw shares after the repair; the environment is a
   per-server script of dial results and per-attempt outcomes, quantified universally. *)
From Coq Require Import List PeanoNat Lia.
From RPCX Require Import XClient.FailMode XClient.FailModeProofs XClient.Backup XClient.BackupProofs.
Import ListNotations.

(* For every mode in {fail-fast, fail-try, fail-over}, every retry count, every number of servers,
   every script of dial results and per-attempt outcomes, every cache state and cursor:
   l = the requests this call delivered to servers, in order.
   (i)   at most retries+1 of them (fail-try / fail-over), at most one (fail-fast);
   (ii)  success is returned exactly when the attempt the call ends with succeeded, with its reply;
   (iii) a service error, a cancelled context, an expired deadline (or a success) is the last attempt;
   (iv)  fail-try sends every attempt to the same server. *)
Theorem C10_call_contract : forall m retries en,
  let r := xcall m retries en in
  exists l, attempts (x_env r) = attempts en ++ l /\
    length l <= max_attempts m retries /\
    (x_err r = None -> exists pre s rp, l = pre ++ [(s, OOk rp)] /\ x_reply r = Some rp) /\
    (forall pre s rp, l = pre ++ [(s, OOk rp)] -> x_err r = None /\ x_reply r = Some rp) /\
    (forall pre s o post, l = pre ++ (s, o) :: post -> terminal o -> post = []) /\
    (m = Failtry -> forall s1 o1 s2 o2, In (s1, o1) l -> In (s2, o2) l -> s1 = s2).
Proof.
  intros m retries en. destruct (xcall_delivers m retries en) as (k & l & Hl & L & H1 & H2 & H3 & H4).
  refine (ex_intro _ l (conj Hl (conj L (conj H1 (conj H2 (conj H3 _)))))).
  (* fail-try: every attempt went to the server k selected at the start *)
  intros Hm s1 o1 s2 o2 I1 I2. pose proof (H4 _ _ I1 Hm). pose proof (H4 _ _ I2 Hm). congruence.
Qed.

(* (iv) fail-over asks the selector again; under round-robin with more than one server the next
   selection is a different server *)
Theorem C10_failover_reselects_differently : forall en,
  2 <= length (servers en) ->
  let '(en1, k1, _, _) := select_client en in
  let '(_, k2, _, _) := select_client en1 in
  k1 <> k2 /\ k1 <> None /\ k2 <> None.
Proof.
  intros en Hn. destruct (length (servers en)) as [|n] eqn:El; [lia|].
  pose proof (select_client_key en n El) as K1. destruct (select_client en) as [[[en1 k1] cl1] e1].
  destruct K1 as (-> & Hl & Hr).
  pose proof (select_client_key en1 n Hl) as K2. destruct (select_client en1) as [[[en2 k2] cl2] e2].
  destruct K2 as (-> & _). rewrite Hr. split; [|split; discriminate].
  intros E. apply (rr_next_differs (rr en mod S n) (S n) Hn); [apply Nat.mod_upper_bound; lia|congruence].
Qed.

(* non-vacuity: fail-over, 2 retries, 3 servers: lost on s0, dial refused on s1, ok on s2 *)
Example C10_nonvacuous :
  let en := mkEnv [mkSrv false [true] [OLost]; mkSrv false [false] []; mkSrv false [true] [OOk 42]] 0 [] in
  let r := xcall Failover 2 en in
  attempts (x_env r) = [(0, OLost); (2, OOk 42)] /\ x_err r = None /\ x_reply r = Some 42.
Proof. vm_compute. repeat split. Qed.

(* Fail-backup (XClient/Backup.v): for every script of dial results and outcomes, every cache state and
   cursor, and both timing choices (the first request answered within the backup latency or not; which of
   the two requests in flight completes first):
   (i)   at most two requests are delivered;
   (ii)  success is returned only for a delivered request that was answered successfully, with that
         request's reply;
   (iii) when nothing could be delivered an error is returned. *)
Theorem C10_backup_contract : forall sc en,
  let r := xcall_backup sc en in
  (length (added en (x_env r)) <= 2) /\
  (x_err r = None -> exists s rep, In (s, OOk rep) (added en (x_env r)) /\ x_reply r = Some rep) /\
  (added en (x_env r) = [] -> x_err r <> None).
Proof. exact backup_contract. Qed.

(* the second request is sent only after the backup latency passed unanswered *)
Theorem C10_backup_second_only_after_latency : forall sc en,
  b_early sc = true ->
  snd (go_attempt (fst (fst (fst (select_client en))))) <> None ->
  length (added en (x_env (xcall_backup sc en))) <= 1.
Proof.
  intros sc en He Hs. unfold xcall_backup. pose proof (select_client_spec en) as H0.
  destruct (select_client en) as [[[en0 k] cl0] err0]. destruct H0 as [H0 _]. cbn [fst] in Hs.
  destruct (match err0 with Some ee => ctx_canceled ee | None => false end).
  { cbn [x_env]. rewrite (added_is en en0 []); [cbn; lia|rewrite app_nil_r; exact H0]. }
  pose proof (go_attempt_spec en0) as H1. destruct (go_attempt en0) as [[en1 err1] [a|]]; [|easy].
  destruct H1 as (l1 & L1 & N1 & _). rewrite He, decided_env, (added_is en en1 l1); [exact N1|congruence].
Qed.

(* non-vacuity: 2 servers, the first request (to s1) is slow, the backup (to s0) answers 7 first; and the
   repaired case: the backup's server refuses the dial, the call waits for the first request's answer *)
Example C10_backup_nonvacuous :
  let en := mkEnv [mkSrv false [true] [OOk 7]; mkSrv false [true] [OOk 5]] 0 [] in
  let r := xcall_backup (mkB false false) en in
  added en (x_env r) = [(1, OOk 5); (0, OOk 7)] /\ x_err r = None /\ x_reply r = Some 7.
Proof. vm_compute. repeat split. Qed.
Example C10_backup_unsendable_backup_waits :
  let en := mkEnv [mkSrv false [false; false] []; mkSrv false [true] [OOk 5]] 0 [] in
  let r := xcall_backup (mkB false false) en in
  added en (x_env r) = [(1, OOk 5)] /\ x_err r = None /\ x_reply r = Some 5.
Proof. vm_compute. repeat split. Qed.

Print Assumptions C10_call_contract.
Print Assumptions C10_backup_contract.
Print Assumptions C10_backup_second_only_after_latency.
Print Assumptions C10_failover_reselects_differently.
