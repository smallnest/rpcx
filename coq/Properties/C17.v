(* C17 — Broadcast, Fork and Inform report what the servers actually did.
   The statements of the property; each follows in a few lines from the general theorems of
   XClient/MultiProofs.v.  v = outcome of each contacted server,
   order = any completion order of the per-server goroutines (a permutation of the indices).
   Premise of the whole property: the caller's context does not expire during the call (a slow
   server is a failing server: its call ends with the deadline error). *)
From Coq Require Import List.
From RPCX Require Import XClient.Multi XClient.MultiProofs.
Import ListNotations.

Theorem C17_broadcast_success_iff_all : forall v order, is_order v order ->
  (fst (broadcast v order) = [] <-> all_ok v).
Proof.
  intros v order Ho. rewrite (broadcast_reports_first_error v order Ho), <- (no_errs_iff_all_ok v order Ho).
  destruct (errs_of v order); easy.
Qed.

Theorem C17_fork_success_iff_some : forall v order, is_order v order -> v <> [] ->
  (fst (fork v order) = [] <-> some_ok v).
Proof.
  intros v order Ho Hne. rewrite (fork_reports v order Ho), <- (ok_in_order v order Ho).
  destruct (existsb _ order) eqn:E; [easy|]. rewrite (no_errs_iff_all_ok v order Ho). split; [|discriminate].
  (* nobody succeeded, and somebody was asked *)
  intros Hall. rewrite <- E. apply (ok_in_order v order Ho), all_ok_some_ok; assumption.
Qed.

Theorem C17_inform_receipts : forall v order, is_order v order ->
  let '(rs, errs, _) := inform v order in
  length rs = length v /\
  (forall i, i < length v ->
     exists rep er, In (i, rep, er) rs /\
       match out_at v i with
       | MOk r => rep = Some r /\ er = None
       | MFail e => rep = None /\ er = Some e
       end) /\
  (errs = [] <-> all_ok v).
Proof.
  intros v order Ho.
  split; [rewrite map_length; apply order_length, Ho|]. split; [|apply no_errs_iff_all_ok, Ho].
  intros i Hi. apply (order_in v order i Ho) in Hi.
  destruct (out_at v i) eqn:E; do 2 eexists; (split; [apply in_map_iff; exists i; rewrite E; eauto|auto]).
Qed.

(* whenever success is reported the caller's reply holds a value produced by a server that succeeded
   (the reply is the same first_ok for the three operations) *)
Theorem C17_reply_from_a_successful_server : forall v order r,
  first_ok v order = Some r -> exists i, In i order /\ out_at v i = MOk r.
Proof. intros v order r H. pose proof (first_ok_spec v order) as S. rewrite H in S. exact S. Qed.
Theorem C17_reply_present : forall v order, is_order v order -> some_ok v -> first_ok v order <> None.
Proof.
  intros v order Ho (i & Hi & Hok) Hn. pose proof (first_ok_spec v order) as S. rewrite Hn in S.
  rewrite (S i) in Hok; [discriminate|apply (order_in v order i Ho), Hi].
Qed.

(* non-vacuity + the order on which a Fork that checks "all done" before "this one succeeded" fails:
   the only success completes last *)
Example C17_nonvacuous :
  fork [MFail 1; MOk 7; MFail 2] [0; 2; 1] = ([], Some 7) /\
  fst (broadcast [MOk 1; MFail 9; MOk 3] [2; 0; 1]) = [9] /\
  inform [MOk 4; MFail 5] [1; 0] = ([(1, None, Some 5); (0, Some 4, None)], [5], Some 4).
Proof. repeat split. Qed.

Print Assumptions C17_broadcast_success_iff_all.
Print Assumptions C17_fork_success_iff_some.
Print Assumptions C17_inform_receipts.
Print Assumptions C17_reply_from_a_successful_server.
Print Assumptions C17_reply_present.
