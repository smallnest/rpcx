(* C16 — Graceful shutdown drains what was read and then stops.
   The statements of the property; each follows in a few lines from the theorems of Server/ShutdownProofs.v and the
   clauses of the invariants of Server/ShutdownInv.v, which hold in every reachable state (Inv_reach); the last two
   from Server/DoneChanProofs.v.
   The model (Server/Shutdown.v) has one event per atomic operation / per code section between two points where another
   goroutine can interfere; a schedule is any list of events (events that are not enabled leave the state
   unchanged), so the theorems quantify over every interleaving of any number of connections, requests (normal, one-way,
   heartbeat, rate-limited, failing authentication, rejected by a plugin), Shutdown callers, Close()
   calls, peer disconnects and deadline expiries.  [info] gives each request its connection and kind. *)
From Coq Require Import List ZArith.
From RPCX Require Import Server.Shutdown Server.ShutdownInv Server.ShutdownProofs.
From RPCX Require Server.DoneChan Server.DoneChanGen Server.DoneChanProofs.
Import ListNotations.

(* (1) Unless the deadline expires, Shutdown returns nil only when every request read at any moment
   before the end of its wait loop - in particular before Shutdown was called - has run to completion;
   a request that has a response had it written, and written to a connection that was open unless the
   connection was closed for a reason other than the shutdown (peer, reader giving the connection up,
   Close()). *)
Theorem C16_drains_what_was_read : forall info evs1 evs2 k r,
  let s1 := run info init evs1 in
  let s2 := run info s1 evs2 in
  polled s1 = false -> wasread (ph s1 r) ->
  sh s2 k = SDone false ->
    (ph s2 r = PExited \/ ph s2 r = PDropped) /\
    (writes info r = true -> ph s2 r = PExited ->
       answered s2 r = true /\ (delivered s2 r = true \/ closed_early s2 (r_conn (info r)))).
Proof. intros info evs1 evs2 k r. exact (drains info _ evs2 k r (Inv_reach info evs1)). Qed.

(* the same on states: past a wait loop that ended with a zero count, nothing read before is pending *)
Theorem C16_drained_state : forall info evs s, s = run info init evs ->
  polled s = true -> expired s = false ->
  forall r, wasread (ph s r) -> late s r = false ->
    (ph s r = PExited \/ ph s r = PDropped) /\
    (writes info r = true -> ph s r = PExited ->
       answered s r = true /\ (delivered s r = true \/ closed_early s (r_conn (info r)))).
Proof. intros info evs s ->. exact (drained info _ (Inv_reach info evs)). Qed.

(* connections are closed by the shutdown (its final sweep, or the readers' deferred close) only past
   the wait loop *)
Theorem C16_connections_closed_after_the_wait : forall info evs s c, s = run info init evs ->
  cst s c = CClosed ByShutdown \/ cst s c = CClosed ByReaderDone ->
  polled s = true \/ closeCalled s = true.
Proof. intros info evs s c ->. exact (closed_by_shutdown_only_after_wait info _ c (Inv_reach info evs)). Qed.

(* the in-progress count is exact in every reachable state, so the wait ends as soon as everything
   that was read has finished *)
Theorem C16_count_exact : forall info evs s, s = run info init evs ->
  count s = Z.of_nat (length (filter (fun r => counted (ph s r)) (readlog s))).
Proof. intros info evs s ->. exact (A_count _ (Inv_A _ _ (Inv_reach info evs))). Qed.

Theorem C16_wait_ends_when_idle : forall info evs s k, s = run info init evs ->
  sh s k = SWaiting -> (forall r, wasread (ph s r) -> counted (ph s r) = false) ->
  sh (step info s (EPoll k)) k = SClosing false.
Proof. intros info evs s k ->. exact (poll_succeeds_when_idle info _ k (Inv_A _ _ (Inv_reach info evs))). Qed.

(* (2) after Shutdown has completed nothing is read and no handler starts for a request that had not
   been read, on old or new connections *)
Theorem C16_nothing_starts_after_completion : forall info evs1 evs2 r,
  let s1 := run info init evs1 in
  completed s1 -> ~ wasread (ph s1 r) ->
  ~ wasread (ph (run info s1 evs2) r) /\ ~ In r (started (run info s1 evs2)).
Proof. intros info evs1 evs2 r. exact (no_read_after_completion info _ evs2 r (Inv_reach info evs1)). Qed.

(* (3) the serve loop returns ErrServerClosed, and only after doneChan is closed; it returns another
   error only if Close() was called *)
Theorem C16_serve_returns_server_closed : forall info evs s, s = run info init evs ->
  (serve s = LReturned true -> done s = true /\ inShutdown s = true) /\
  (serve s = LReturned false -> closeCalled s = true).
Proof.
  intros info evs s ->. generalize (C_serve _ (Inv_C _ _ (Inv_reach info evs))).
  split; intros E; rewrite E in *; assumption.
Qed.

Theorem C16_serve_returns_after_completion : forall info evs s, s = run info init evs ->
  completed s -> serve s = LAccepting ->
  serve (run info s [EAcceptErr; EServeRet]) = LReturned true.
Proof. intros info evs s ->. exact (serve_returns_closed_after_completion info _ (Inv_C _ _ (Inv_reach info evs))). Qed.

(* (4) repeated / concurrent Shutdown and Close: doneChan is closed at most once, one caller runs the
   shutdown, every other caller returns nil at once *)
Theorem C16_done_closed_at_most_once : forall info evs s, s = run info init evs -> closes s <= 1.
Proof.
  intros info evs s ->. rewrite (C_closes _ (Inv_C _ _ (Inv_reach info evs))).
  destruct (done _); auto.
Qed.

Theorem C16_one_shutdown_runs : forall info evs s k1 k2, s = run info init evs ->
  winner (sh s k1) -> winner (sh s k2) -> k1 = k2.
Proof. intros info evs s k1 k2 ->. exact (C_win_uniq _ (Inv_C _ _ (Inv_reach info evs)) k1 k2). Qed.

Theorem C16_later_shutdown_returns_at_once : forall info s k,
  inShutdown s = true -> sh s k = SIdle -> sh (step info s (EShutBegin k)) k = SLost.
Proof. intros info s k H1 H2. unfold step. rewrite H2, H1. apply ShutdownStep.upd_same. Qed.

(* non-vacuity: one connection, a request read and parked in its handler when Shutdown begins; the
   first poll fails, the handler finishes, the response is written, the second poll succeeds *)
Definition ex_info (r : nat) : rinfo := mkInfo 0 KNormal false.
Definition ex_evs1 : list event :=
  [EAccept 0; EServe 0; ETop 0; EArrive 1; ERead 1; EDispatch 1; ETop 0; EEnter 1; EStart 1].
Definition ex_evs2 : list event :=
  [EShutBegin 7; EPoll 7; EFinish 1; EWrite 1; EPoll 7; EExit 1; EPoll 7; ECloseConns 7; EReadErr 0; EWaitDone 0;
   EAcceptErr; EServeRet].
Example C16_nonvacuous :
  let s1 := run ex_info init ex_evs1 in
  let s2 := run ex_info s1 ex_evs2 in
  polled s1 = false /\ ph s1 1 = PRunning /\ sh s2 7 = SDone false /\
  ph s2 1 = PExited /\ answered s2 1 = true /\ delivered s2 1 = true /\
  cst s2 0 = CClosed ByShutdown /\ serve s2 = LReturned true /\ closes s2 = 1.
Proof. vm_compute. repeat split; reflexivity. Qed.

Print Assumptions C16_drains_what_was_read.
Print Assumptions C16_drained_state.
Print Assumptions C16_connections_closed_after_the_wait.
(* "Safe to call repeatedly or together with Close", at the granularity of single statements and about the code as it
   is now.  The model above treats "close doneChan unless it is closed" as one step; in the source it is two (look,
   then close), and closing a closed channel panics.  tools/godone2v regenerates from server/*.go, on every run, the one
   place that closes doneChan (it must have exactly the shape select { case <-s.doneChan: default: close(s.doneChan) })
   and its call sites with the state of s.mu there: every one of them stands under the mutex ... *)
Theorem C16_every_closing_of_done_stands_under_the_mutex :
  forallb (fun s => snd s) DoneChanGen.done_sites = true.
Proof. vm_compute. reflexivity. Qed.

(* ... and goroutines that run such call sites - any number of them, each any number of times (Shutdown, Close, again and
   together), interleaved statement by statement in any order - never close the channel twice: nobody panics. *)
Theorem C16_shutdown_and_close_never_close_done_twice : forall (calls : nat -> nat) sched,
  DoneChan.dpanic (DoneChan.drun sched
    (DoneChan.dstart (fun t => List.concat (repeat (DoneChan.site_prog true) (calls t))))) = false.
Proof.
  intros calls sched. apply DoneChanProofs.disciplined_closers_never_panic. intros t.
  apply DoneChanProofs.held_sites_disciplined.
Qed.

Print Assumptions C16_count_exact.
Print Assumptions C16_wait_ends_when_idle.
Print Assumptions C16_nothing_starts_after_completion.
Print Assumptions C16_serve_returns_server_closed.
Print Assumptions C16_serve_returns_after_completion.
Print Assumptions C16_done_closed_at_most_once.
Print Assumptions C16_one_shutdown_runs.
Print Assumptions C16_later_shutdown_returns_at_once.
Print Assumptions C16_every_closing_of_done_stands_under_the_mutex.
Print Assumptions C16_shutdown_and_close_never_close_done_twice.
