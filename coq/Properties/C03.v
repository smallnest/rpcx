(* C03 — Replies reach exactly the call that asked, in any arrival order.
   The statements of the property; each follows in a few lines from the general theorems of Client/ClientProofs.v and,
   for the sequence numbers, of the Pending files (PendingSeqProofs.v, PendingGenProofs.v) or, where the statement says
   what `step` computes on one event, by computing it.  The machine is Client/ClientSM.v: one event per critical section
   of client.go; a schedule is an arbitrary event list (disabled events are no-ops). *)
From Coq Require Import List NArith.
From RPCX Require Import Client.ClientSM Client.ClientProofs.
(* required, not imported: Pending.step / run / call / Inv would shadow those of ClientSM / ClientProofs *)
From RPCX Require Client.Pending Client.PendingSeq Client.PendingGenProofs.
Import ListNotations.

(* For every set of calls (Go, Call, SendRaw, heartbeats are ordinary calls), every schedule - hence
   every arrival order, duplicates, unknown sequence numbers and pushes included: whenever a call was
   completed by a response frame f, f carries that call's own sequence number, f is not a
   server-initiated message, and the call's result is the interpretation of f (its reply payload, or
   the service error with f's error text). *)
Theorem C03_completed_by_own_response : forall cs chan sched c x f r,
  wf_init cs -> nth_error (calls (run (init cs chan) sched)) c = Some x ->
  In (ByResp f, r) (c_signals x) ->
  c_seq x = Some (f_seq f) /\ f_servermsg f = false /\ r = interp f x.
Proof. intros * Hw. exact (inv_route _ _ (reach_inv cs chan sched Hw) c x f r). Qed.

(* a frame with an unknown or already-completed sequence number, and a server-initiated message
   whatever its sequence number (also one equal to a pending call's), changes no call and no entry *)
Theorem C03_strays_and_pushes_are_inert : forall st f,
  f_servermsg f = true \/ plookup (f_seq f) (pending st) = None ->
  calls (step st (ERecv f)) = calls st /\ pending (step st (ERecv f)) = pending st.
Proof.
  intros st f H. cbn [step]. destruct (reader_alive st); [|split; reflexivity].
  destruct (f_servermsg f) eqn:Es.
  - destruct (chan_registered st); split; reflexivity.
  - destruct H as [H|H]; [discriminate|]. rewrite H. split; reflexivity.
Qed.

(* server-initiated messages are handed to the registered channel in arrival order; nothing else is *)
Theorem C03_pushes_in_order : forall st e, pushes (step st e) = pushes st ++ pushed st e.
Proof.
  intros st e. pose proof (Step_pushes_only_recv _ _ _ (step_Step st e)) as H.
  destruct e as [c|c|c|c|c|c|c|c|f|eof|]; cbn [pushed]; rewrite ?app_nil_r; try (destruct H as [E|[f [=]]]; exact E).
  cbn [step]. destruct (reader_alive st); cbn [andb]; [|symmetry; apply app_nil_r].
  destruct (f_servermsg f); cbn [andb].
  - destruct (chan_registered st); [reflexivity|symmetry; apply app_nil_r].
  - rewrite app_nil_r. destruct (plookup (f_seq f) (pending st)) as [c'|]; [|reflexivity].
    destruct (getc st c'); [now rewrite (complete_at_frame pushes)|reflexivity].
Qed.

(* the invariant behind it holds in every reachable state *)
Theorem C03_invariant : forall sched st,
  Inv (pending st) (calls st) -> Inv (pending (run st sched)) (calls (run st sched)).
Proof. exact (run_invariant (fun st => Inv (pending st) (calls st)) Step_inv). Qed.

(* non-vacuity: three calls, responses in the order 2,0,1 with a duplicate and a push carrying seq 1 *)
Definition fr (id : nat) (s : N) (push : bool) (pl : nat) : frame := mkFrame id s push false false 0 pl true true.
Example C03_nonvacuous :
  let cs := [new_call KGo false 0; new_call KCall false 0; new_call KGo false 0] in
  let st := run (init cs true)
      [EReg 0; EReg 1; EReg 2; EWriteOk 0; EWriteOk 1; EWriteOk 2;
       ERecv (fr 10 2 false 72); ERecv (fr 11 1 true 99); ERecv (fr 12 0 false 70); ERecv (fr 13 2 false 55);
       ERecv (fr 14 1 false 71)] in
  map (fun x => map snd (c_signals x)) (calls st) = [[ROk 70]; [ROk 71]; [ROk 72]] /\ pushes st = [11].
Proof. vm_compute. split; reflexivity. Qed.

(* The sequence numbers themselves, at the granularity of single statements and about the code as it is now (the paths
   of send, call, input and Close regenerated from client/client.go on every run, tools/gopending2v): send reads its
   number from client.seq and advances the counter within the critical section that registers the call under it, and
   nothing else writes the counter.  Hence, under ANY interleaving of any number of goroutines running these paths
   (SendRaw, which registers under a caller-chosen number, apart): no table entry is ever overwritten - a registered
   call keeps its own number until somebody takes it out - and every number in the table is below the counter, so
   a number is never handed out while a call is registered under it. *)
Theorem C03_a_registered_call_keeps_its_number_to_itself : forall progs sched,
  (forall t, PendingGenProofs.runs_of PendingGenProofs.strict_paths (progs t)) ->
  let w := PendingSeq.run2 sched (PendingSeq.start2 progs) in
  PendingSeq.clob w = false /\
  (forall key c, Pending.lookup (Pending.pend (PendingSeq.base w)) key = Some c -> key < PendingSeq.ctr w).
Proof.
  intros progs sched Hp.
  destruct (PendingGenProofs.client_goroutines_never_overwrite progs sched Hp) as (Hclob & _ & _ & Hbelow).
  exact (conj Hclob Hbelow).
Qed.

Print Assumptions C03_completed_by_own_response.
Print Assumptions C03_strays_and_pushes_are_inert.
Print Assumptions C03_pushes_in_order.
Print Assumptions C03_invariant.
Print Assumptions C03_a_registered_call_keeps_its_number_to_itself.
