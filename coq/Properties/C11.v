(* C11 — Selectors return only live, eligible servers and never crash.
   The statements of the property; each follows in a few lines from the general theorems of
   Select/*Proofs.v.  "Never crashes" is by construction of the total models plus the
   correspondence check (a panic of the real selector is an oracle failure); the theorems state
   membership in the most recent set and emptiness exactly when nothing is eligible, for every
   strategy and every history of updates. *)
From Coq Require Import List ZArith.
From RPCX Require Import Base.Cyclic Select.RoundRobin Select.RoundRobinProofs Select.SWRR Select.SWRRProofs
  Select.Simple Select.SimpleProofs Select.DoubleJump Select.DoubleJumpProofs Select.ConsistentHashProofs.
Import ListNotations.
Close Scope Z_scope.
Open Scope nat_scope.

Theorem C11_random_member : forall ss i o, rnd_select ss i = Some o -> In o ss.
Proof.
  intros ss i o. unfold rnd_select. destruct ss as [|d l] eqn:E; [discriminate|]. rewrite <- E.
  intros [= <-]. apply (cyc_nth_In d ss i). congruence.
Qed.
Theorem C11_random_empty_iff : forall ss i, rnd_select ss i = None <-> ss = [].
Proof. intros [|d l] i; split; (discriminate || reflexivity). Qed.

(* round-robin: the state after any history holds the last published list (C12), selection is from it *)
Theorem C11_round_robin_member : forall s r, fst (rr_select s) = Some r -> In r (rr_servers s).
Proof.
  intros s r H. assert (Hn : rr_servers s <> []) by (intros E; apply rr_select_empty_iff in E; congruence).
  rewrite (rr_select_spec s 0 Hn) in H. injection H as <-. apply cyc_nth_In, Hn.
Qed.
Theorem C11_round_robin_empty : forall s, rr_servers s = [] -> fst (rr_select s) = None.
Proof. apply rr_select_empty_iff. Qed.

(* weighted: the ring holds server i exactly weight_i times (weights as createWeighted clamps them),
   so only servers of positive weight are ever selected and each of them is; a ring is built iff the
   total weight is positive *)
Theorem C11_weighted_ring : forall ws : list Z,
  Forall (fun w => 0 <= w)%Z ws -> (0 < sumZ ws)%Z ->
  length (swrr_ring ws) = Z.to_nat (sumZ ws) /\
  Forall (fun x => x < length ws) (swrr_ring ws) /\
  forall i, i < length ws -> cnt (swrr_ring ws) i = nth i ws 0%Z.
Proof. intros ws Hnn Hpos. destruct (swrr_ring_count ws Hnn Hpos) as (Hlen & Hall & Hcnt). auto. Qed.

Theorem C11_closest_member : forall ss pick o,
  geo_select (create_geo ss) pick = Some o ->
  exists g, In g ss /\ g_id g = o /\ geo_eligible g = true.
Proof.
  intros ss pick o H. apply geo_select_member, in_map_iff in H. destruct H as (g & Hid & Hg).
  apply filter_In in Hg. exists g. tauto.
Qed.
Theorem C11_closest_empty_iff : forall ss pick,
  (forall g, In g ss -> geo_eligible g = true -> exists d, g_dist g = Some d /\ (d <= max_float_bits)%Z) ->
  (geo_select (create_geo ss) pick = None <-> create_geo ss = []).
Proof.
  intros ss pick Hd. apply geo_select_empty_iff. intros g Hg. apply filter_In in Hg. apply Hd; tauto.
Qed.

(* consistent hash: the selector invariant (doublejump's arrays and free list agree, the selector's
   list is the member set) holds after construction and after every update; under it selection is a
   member of the last published set and is empty exactly when that set is *)
Theorem C11_hash_new : forall keys,
  SelInv (ch_new keys) /\ (forall o, In o (ch_servers (ch_new keys)) <-> In o keys).
Proof. exact ch_new_inv. Qed.
Theorem C11_hash_update : forall s keys, SelInv s ->
  SelInv (ch_update s keys) /\ (forall o, In o (ch_servers (ch_update s keys)) <-> In o keys).
Proof. exact ch_update_inv. Qed.
Theorem C11_hash_member : forall s key o, SelInv s -> ch_small s ->
  ch_select s key = Some o -> In o (ch_servers s).
Proof. intros s key o Hs [_ Hc]. apply ch_select_member; [exact Hs|exact (small_S _ Hc)]. Qed.
Theorem C11_hash_empty_iff : forall s key, SelInv s -> (ch_select s key = None <-> ch_servers s = []).
Proof.
  intros s key Hs. rewrite ch_select_get, get_none_iff by (exact Hs || apply Hs).
  symmetry. apply SelInv_empty, Hs.
Qed.

(* non-vacuity: a selector that went through add / remove / re-add (a reused free slot) *)
Example C11_nonvacuous :
  let s := ch_update (ch_update (ch_new [3; 1; 2]) [1; 3]) [1; 3; 7] in
  la (ch_h s) = [Some 1; Some 7; Some 3] /\ ca (ch_h s) = [1; 3; 7] /\ ch_servers s = [1; 3; 7] /\
  ch_select s 12345%Z = Some 7.
Proof. vm_compute. repeat split. Qed.

Print Assumptions C11_random_member.
Print Assumptions C11_round_robin_member.
Print Assumptions C11_weighted_ring.
Print Assumptions C11_closest_member.
Print Assumptions C11_closest_empty_iff.
Print Assumptions C11_hash_new.
Print Assumptions C11_hash_update.
Print Assumptions C11_hash_member.
Print Assumptions C11_hash_empty_iff.
