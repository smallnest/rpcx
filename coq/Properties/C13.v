(* C13 — Consistent-hash routing is stable, reproducible and monotone.
   The statements of the property; each follows in a few lines from the general theorems of
   Select/JumpProofs.v, DoubleJumpProofs.v and ConsistentHashProofs.v. *)
From Coq Require Import List ZArith Permutation.
From RPCX Require Import Select.Jump Select.JumpProofs Select.DoubleJump Select.DoubleJumpProofs
  Select.ConsistentHashProofs.
Import ListNotations.
Close Scope Z_scope.
Open Scope nat_scope.

(* the bit-exact jump hash (IEEE-754 binary64 via Flocq): the next jump never moves backwards, so
   growing the bucket count by one leaves a key where it was or moves it to the new bucket *)
Theorem C13_jump_in_range : forall key n, (1 <= n <= 2^31)%Z -> (0 <= jump key n < n)%Z.
Proof. exact jump_range. Qed.
Theorem C13_jump_monotone : forall key n, (1 <= n)%Z -> (n + 1 <= 2^31)%Z ->
  jump key (n + 1) = jump key n \/ jump key (n + 1) = n.
Proof. exact jump_mono. Qed.

(* (i) selection does not change the state (ch_select returns no state), and an update that
   re-announces the same set leaves every key where it was *)
Theorem C13_same_set_update_is_noop : forall s keys key, SelInv s ->
  (forall o, In o keys <-> In o (ch_servers s)) ->
  ch_select (ch_update s keys) key = ch_select s key.
Proof.
  intros s keys key Hs Hsame. rewrite !ch_select_get by (try apply ch_update_inv; exact Hs).
  rewrite ch_update_same_set by assumption. reflexivity.
Qed.

(* (ii) two selectors constructed from the same server set - whatever order the Go map handed the
   keys out in - are equal, hence agree on every key *)
Theorem C13_construction_independent_of_map_order : forall k1 k2,
  Permutation k1 k2 -> ch_new k1 = ch_new k2.
Proof. intros k1 k2 H. unfold ch_new. rewrite (sort_nat_perm _ _ H). reflexivity. Qed.

(* (iii) when servers are only added, a key keeps its server or moves to one of the new servers -
   from any reachable state (also after earlier removals left holes) *)
Theorem C13_additions_are_monotone : forall s keys key, SelInv s ->
  (forall o, In o (ch_servers s) -> In o keys) ->
  small (S (length (la (ch_h s)) + length keys)) -> small (S (length (ca (ch_h s)) + length keys)) ->
  ch_servers s <> [] ->
  ch_select (ch_update s keys) key = ch_select s key \/
  exists x, ch_select (ch_update s keys) key = Some x /\ In x keys /\ ~ In x (ch_servers s).
Proof. intros s keys key Hs Hsup Hs1 Hs2 _. apply ch_update_additions_monotone; assumption. Qed.

Theorem C13_single_add_monotone : forall h x key,
  Inv h -> ~ In x (ca h) -> small (S (length (la h))) -> small (S (length (ca h))) ->
  dj_get (dj_add h x) key = dj_get h key \/ dj_get (dj_add h x) key = Some x.
Proof. intros h x key Hi _ Hsl Hsc. destruct (add_monotone h x key Hi Hsl Hsc) as [E|[E _]]; auto. Qed.

(* non-vacuity: the invariant holds of a constructed selector (the executable jump model is
   cross-checked against the real jump.Hash on every run by the correspondence check) *)
Example C13_nonvacuous : SelInv (ch_new [4; 2; 9]) /\ ch_servers (ch_new [4; 2; 9]) = [2; 4; 9].
Proof. split; [apply ch_new_inv|reflexivity]. Qed.

Print Assumptions C13_jump_in_range.
Print Assumptions C13_jump_monotone.
Print Assumptions C13_same_set_update_is_noop.
Print Assumptions C13_construction_independent_of_map_order.
Print Assumptions C13_additions_are_monotone.
Print Assumptions C13_single_add_monotone.
