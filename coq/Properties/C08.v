(* C08 — Frames are never interleaved or torn on a shared connection.
   The statements of the property; each follows in a few lines from the general theorems of
   Wire/SharedProofs.v and Wire/SharedGenProofs.v.  The write sites (Wire/SharedGen.v) are regenerated
   from /repo's Go source on every run; Wire/SharedGenProofs.v re-checks that every control-flow path
   of every site follows the discipline Get; Fill; Write once; Put once.
   Premise on the transport (net.Conn): the bytes of one Write call are contiguous in the stream. *)
From Coq Require Import List NArith Arith.
From RPCX Require Import Wire.Codec Wire.EncodeProofs Wire.Shared Wire.SharedProofs Wire.SharedGen Wire.SharedGenProofs.
Import ListNotations.
Close Scope N_scope.
Open Scope nat_scope.

(* For any number of writers, each executing any path of any write site of the code, sending any
   well-formed messages, and for every schedule of their pool / transport operations (and every choice
   of the pooled buffer handed out): the byte stream is the concatenation of whole frames, one per
   write, each equal to the frame of the message its writer sent. *)
Theorem C08_stream_is_whole_frames : forall env maxlen msg,
  (forall t, frame_ok env maxlen (msg t)) ->
  forall site sched,
  stream (wrun env msg (progs site) sched) =
  flat_map (fun t => frame_bytes env (msg t)) (wlog (wrun env msg (progs site) sched)).
Proof.
  intros env maxlen msg Hok site sched. apply (shared_stream_is_frames env msg (fun t => frame_ok_fill env maxlen _ (Hok t))).
  intros t. apply prog_of_safe.
Qed.

(* An independent decoder reading that stream - however the transport segments it: the decoder only
   sees the concatenation - recovers exactly the messages sent, in the order of the writes. *)
Theorem C08_peer_decodes_what_was_sent : forall env maxlen msg,
  (forall t, frame_ok env maxlen (msg t)) ->
  forall site sched old fuel,
  length (wlog (wrun env msg (progs site) sched)) <= fuel ->
  decode_all fuel env maxlen old (stream (wrun env msg (progs site) sched)) =
  (map msg (wlog (wrun env msg (progs site) sched)), None).
Proof. exact sites_stream_decodes. Qed.

(* no frame is duplicated: every writer's frame appears at most once *)
Theorem C08_each_frame_at_most_once : forall env maxlen msg,
  (forall t, frame_ok env maxlen (msg t)) ->
  forall site sched t,
  count_occ Nat.eq_dec (wlog (wrun env msg (progs site) sched)) t <= 1.
Proof.
  intros env maxlen msg _ site sched t.
  eapply Nat.le_trans; [apply frames_written_at_most_programmed|apply prog_of_writes_once].
Qed.

(* the same for arbitrary programs that follow the discipline (not only today's sites) *)
Theorem C08_discipline_suffices : forall env maxlen msg,
  (forall t, frame_ok env maxlen (msg t)) ->
  forall prog0 sched, (forall t, safe_from 0 (prog0 t) = true) ->
  stream (wrun env msg prog0 sched) = flat_map (frame env msg) (wlog (wrun env msg prog0 sched)).
Proof. intros env maxlen msg Hok. exact (shared_stream_is_frames env msg (fun t => frame_ok_fill env maxlen _ (Hok t))). Qed.

(* the obligations on the generated sites *)
Theorem C08_every_site_follows_the_discipline :
  forallb (fun sp => safe_from 0 (snd sp)) site_paths = true /\
  forallb (fun sp => Nat.leb (count_writes (snd sp)) 1) site_paths = true.
Proof. exact (conj all_sites_safe all_sites_write_once). Qed.

(* Non-vacuity, and the discipline is what the theorem rests on: a writer that puts its buffer twice
   (thread 0) lets two later writers share one buffer; in this schedule the stream carries the frame of
   thread 2 twice and never the frame of thread 1. *)
Definition ex_env : comp_env := fun _ => None.
Definition ex_msg (t : nat) : message :=
  mkMsg [8;0;0;0;0;0;0;0;0;0;0;N.of_nat t]%N [65]%N [66]%N [] [N.of_nat t; 7]%N.
Definition ex_bad (t : nat) : list op :=
  match t with 0 => [OGet; OFill; OWrite; OPut; OPut] | _ => [OGet; OFill; OWrite; OPut] end.
Definition ex_sched : list (nat * nat) :=
  [(0,0);(0,0);(0,0);(0,0);(0,0); (1,0); (2,0); (1,0); (2,0); (1,0); (2,0)].
Example C08_double_put_tears_the_stream :
  let s := wrun ex_env ex_msg ex_bad ex_sched in
  wlog s = [0; 1; 2] /\
  stream s = frame_bytes ex_env (ex_msg 0) ++ frame_bytes ex_env (ex_msg 2) ++ frame_bytes ex_env (ex_msg 2) /\
  safe_from 0 (ex_bad 0) = false.
Proof. vm_compute. repeat split; reflexivity. Qed.

(* the same schedule with every writer following the discipline *)
Example C08_nonvacuous :
  let s := wrun ex_env ex_msg (fun _ => [OGet; OFill; OWrite; OPut]) ex_sched in
  stream s = frame_bytes ex_env (ex_msg 0) ++ frame_bytes ex_env (ex_msg 1) ++ frame_bytes ex_env (ex_msg 2).
Proof. vm_compute. reflexivity. Qed.

Print Assumptions C08_stream_is_whole_frames.
Print Assumptions C08_peer_decodes_what_was_sent.
Print Assumptions C08_each_frame_at_most_once.
Print Assumptions C08_discipline_suffices.
Print Assumptions C08_every_site_follows_the_discipline.
