(* C09 — Arguments, replies and metadata arrive unchanged (codec / compression / transport / concurrency).
   The statements of the property; each follows in a few lines from the general theorems of
   E2E/PathProofs.v, E2E/Concurrent.v, the wire and shared-connection theorems and, for the last,
   Pool/PoolSitesProofs.v.
   Premises about externals: the serialization codecs round-trip ([cenc]/[cdec], for every serialize type),
   only the zero value has an empty encoding, and the registered compressor inverts (inside [sendable] /
   [frame_ok]: comp_ok).  The transport carries the bytes of the frames (C08); every supported stream
   transport is a net.Conn and is exercised by the correspondence check. *)
From Coq Require Import List NArith.
From RPCX Require Pool.PoolSites Pool.PoolSitesGen Pool.PoolSitesProofs.
From RPCX Require Import Wire.Bytes Wire.Header Wire.Codec Wire.CodecRoundTrip Wire.StreamProofs Wire.EncodeProofs Wire.Shared Wire.SharedGenProofs E2E.Path E2E.PathProofs E2E.Concurrent.
Import ListNotations.
Open Scope N_scope.

(* One call, end to end, for every codec, every compress setting of the client (hence of the server,
   which answers with the request's), every payload size and every pooled-buffer / decoder-object
   history on both sides: the handler is given the caller's arguments and metadata; the caller is given
   the handler's reply and response metadata; the response arrives with the sequence number it was sent with. *)
Theorem C09_end_to_end : forall env maxlen value cenc cdec vzero,
  (forall s v b, cenc s v = Some b -> b <> [] -> cdec s b = Some v) ->
  (forall s v, cenc s v = Some [] -> v = vzero) ->
  forall k req,
  k_ser value k < 16 -> client_req value cenc k = Some req -> sendable env maxlen req -> m_payload req <> [] ->
  forall old1 g1 rest1, lenN g1 = encode_len env req ->
  exists req',
    out_msg (fst (decode env maxlen old1 (encode_pooled env g1 req ++ rest1))) = Ok req' /\
    handler_view value cdec req' = (Some (k_args value k), k_meta value k) /\
    forall reply rm res, server_res value cenc req' reply rm = Some res -> sendable env maxlen res ->
    forall old2 g2 rest2, lenN g2 = encode_len env res ->
    exists res',
      out_msg (fst (decode env maxlen old2 (encode_pooled env g2 res ++ rest2))) = Ok res' /\
      Seq (m_hdr res') = Seq (m_hdr res) /\
      caller_view value cdec vzero res' = (Some reply, rm).
Proof.
  intros env maxlen value cenc cdec vzero Hrt Hz k req Hser Hreq Hs Hne old1 g1 rest1 Hg1.
  destruct (client_req_facts value cenc k req Hser Hreq) as (Hh & _).
  exists req. split; [apply (wire env maxlen req old1 g1 rest1 Hh Hs Hg1)|].
  split; [now apply (handler_sees_what_was_sent value cenc cdec Hrt)|].
  intros reply rm res Hres Hsr old2 g2 rest2 Hg2.
  pose proof (server_res_hdr_ok value cenc req reply rm res Hh Hres) as Hh2.
  exists res. split; [apply (wire env maxlen res old2 g2 rest2 Hh2 Hsr Hg2)|]. split; [reflexivity|].
  exact (caller_sees_what_was_replied value cenc cdec Hrt vzero Hz req reply rm res Hres).
Qed.

(* Compression is invisible to handlers and callers. *)
Theorem C09_compression_is_invisible : forall (maxlen : N) value cenc cdec vzero,
  (forall s v b, cenc s v = Some b -> b <> [] -> cdec s b = Some v) ->
  (forall s v, cenc s v = Some [] -> v = vzero) ->
  forall ser seq path meth meta (args : value) ow ct1 ct2 req1 req2,
  ser < 16 ->
  client_req value cenc (mkCall value ser ct1 seq path meth meta args ow) = Some req1 ->
  client_req value cenc (mkCall value ser ct2 seq path meth meta args ow) = Some req2 ->
  m_payload req1 <> [] ->
  handler_view value cdec req1 = handler_view value cdec req2 /\
  forall reply rm res1 res2,
    server_res value cenc req1 reply rm = Some res1 -> server_res value cenc req2 reply rm = Some res2 ->
    caller_view value cdec vzero res1 = caller_view value cdec vzero res2.
Proof.
  intros maxlen value cenc cdec vzero Hrt Hz ser seq path meth meta args ow ct1 ct2 req1 req2 Hser H1 H2 Hne.
  set (k1 := mkCall value ser ct1 seq path meth meta args ow) in *.
  set (k2 := mkCall value ser ct2 seq path meth meta args ow) in *.
  destruct (client_req_facts value cenc k1 req1 Hser H1) as (_ & _ & _ & _ & _ & E1).
  destruct (client_req_facts value cenc k2 req2 Hser H2) as (_ & _ & _ & _ & _ & E2).
  assert (Hp : m_payload req2 = m_payload req1) by (cbn in E1, E2; congruence).
  split.
  - rewrite (handler_sees_what_was_sent value cenc cdec Hrt k1 req1 Hser H1 Hne).
    rewrite (handler_sees_what_was_sent value cenc cdec Hrt k2 req2 Hser H2) by (now rewrite Hp). reflexivity.
  - intros reply rm res1 res2 R1 R2.
    rewrite (caller_sees_what_was_replied value cenc cdec Hrt vzero Hz _ _ _ _ R1).
    rewrite (caller_sees_what_was_replied value cenc cdec Hrt vzero Hz _ _ _ _ R2). reflexivity.
Qed.

(* Under concurrent use of one connection, for every schedule of the writers: the server decodes exactly
   the requests sent, and every handler is given its own caller's arguments and metadata. *)
Theorem C09_concurrent_callers : forall env maxlen value cenc cdec vzero,
  (forall s v b, cenc s v = Some b -> b <> [] -> cdec s b = Some v) ->
  (forall s v, cenc s v = Some [] -> v = vzero) ->
  forall (calls : nat -> call value) (reqs : nat -> message),
  (forall t, client_req value cenc (calls t) = Some (reqs t)) ->
  (forall t, k_ser value (calls t) < 16) ->
  (forall t, m_payload (reqs t) <> []) ->
  (forall t, frame_ok env maxlen (reqs t)) ->
  forall site sched old fuel,
  (length (wlog (wrun env reqs (progs site) sched)) <= fuel)%nat ->
  decode_all fuel env maxlen old (stream (wrun env reqs (progs site) sched)) =
    (map reqs (wlog (wrun env reqs (progs site) sched)), None) /\
  forall t, handler_view value cdec (reqs t) = (Some (k_args value (calls t)), k_meta value (calls t)).
Proof.
  intros env maxlen value cenc cdec vzero Hrt _ calls reqs Hreq Hser Hne Hok site sched old fuel.
  apply (concurrent_callers_are_served_their_own_arguments env maxlen value cenc cdec Hrt calls reqs); try assumption.
  intros t. apply prog_of_safe.
Qed.

(* non-vacuity: an identity codec on byte strings, a "compressor" that prefixes a byte; a 1030-byte
   argument crosses the threshold and is compressed on the wire, yet the views are unchanged *)
Definition ex_cenc (s : N) (v : bytes) : option bytes := Some v.
Definition ex_cdec (s : N) (b : bytes) : option bytes := Some b.
Definition ex_comp : compressor :=
  {| c_zip := fun b => Some (99 :: b); c_unzip := fun b => match b with 99 :: r => Some r | _ => None end |}.
Definition ex_env : comp_env := fun ct => if ct =? 1 then Some ex_comp else None.
Definition ex_call : call bytes := mkCall bytes 0 1 7 [65] [66] [([107], [118])] (repeat 5 1030) false.
Example C09_nonvacuous :
  exists req, client_req bytes ex_cenc ex_call = Some req /\
    CompressType (m_hdr req) = 1 /\
    lenN (payload_on_wire ex_env req) = 1031 /\
    handler_view bytes ex_cdec req = (Some (repeat 5 1030), [([107], [118])]).
Proof. eexists. split; [reflexivity|]. vm_compute. repeat split; reflexivity. Qed.

(* Under concurrent use the decoded arguments of one request are not overwritten by another: on every control-flow
   path of the two request handlers (regenerated from server/server.go on every run, tools/gopools2v) the pooled
   argument and reply objects are used only while the request holds them and are returned to their pool at most once
   (C20 states what that buys: no object is handed to two requests). *)
Theorem C09_pooled_arguments_have_one_owner :
  forallb (fun p => RPCX.Pool.PoolSites.disciplined 0 0 (snd p)) RPCX.Pool.PoolSitesGen.handler_paths = true.
Proof. exact RPCX.Pool.PoolSitesProofs.every_path_is_disciplined. Qed.

Print Assumptions C09_end_to_end.
Print Assumptions C09_compression_is_invisible.
Print Assumptions C09_concurrent_callers.
Print Assumptions C09_pooled_arguments_have_one_owner.
