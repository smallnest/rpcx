(* C20 — Pooled buffers and objects are never visible to two owners at once.
   The statements of the property; each follows in a few lines from the general theorems of Pool/PoolProofs.v and
   Pool/PoolSitesProofs.v and, for the frame buffers, Wire/SharedGenProofs.v. *)
From Coq Require Import List NArith Arith.
From RPCX Require Import Pool.Pool Pool.PoolProofs Pool.PoolSites Pool.PoolSitesGen Pool.PoolSitesProofs.
From RPCX Require Wire.Shared Wire.SharedGen Wire.SharedGenProofs.
Import ListNotations.

(* byte pools: for every configuration 0 < min <= max (< 2^64) and every size: a request routed to
   class i fits the buffers class i allocates, and a buffer accepted back into class i is at least
   that large - so re-slicing a pooled buffer to the requested size is always legal and Get returns
   exactly the requested length *)
Theorem C20_get_fits_its_class : forall pmin pmax size i,
  (0 < pmin)%N -> (pmin <= pmax)%N -> (pmax < 2 ^ 64)%N ->
  find_get pmin pmax size = Some i -> (size <= class_size pmin pmax i)%N.
Proof. intros * Hmin _. apply get_fits, Hmin. Qed.

Theorem C20_put_is_big_enough : forall pmin pmax cap i,
  (0 < pmin)%N -> (pmin <= pmax)%N ->
  find_put pmin pmax cap = Some i -> (class_size pmin pmax i <= cap)%N.
Proof. intros * _ _. apply put_is_big_enough. Qed.

Theorem C20_get_returns_requested_length : forall pmin pmax size i bufcap,
  (0 < pmin)%N -> (pmin <= pmax)%N -> (pmax < 2 ^ 64)%N ->
  find_get pmin pmax size = Some i -> (class_size pmin pmax i <= bufcap)%N -> (size <= bufcap)%N.
Proof. intros * Hmin _ Hmax Hg Hb. exact (N.le_trans _ _ _ (get_fits _ _ _ _ Hmin Hmax Hg) Hb). Qed.

(* ownership: for every history of Gets and Puts in which an owner returns only what it holds, and
   for every choice the pool makes when handing out objects (sync.Pool may return any object that was
   put, or a new one), all objects in the pool and in owners' hands are pairwise distinct: no object
   is held by two owners, or held while it sits in the pool *)
Theorem C20_exclusive_ownership : forall ops s, PInv s -> prun_ok s ops -> PInv (prun s ops).
Proof. exact prun_inv. Qed.

Theorem C20_single_owner : forall ops o w1 w2 i j,
  prun_ok p_init ops ->
  nth_error (p_owned (prun p_init ops)) i = Some (o, w1) ->
  nth_error (p_owned (prun p_init ops)) j = Some (o, w2) -> i = j.
Proof. intros * Hok. apply pinv_single_owner, C20_exclusive_ownership; [apply pinv_init|exact Hok]. Qed.

(* non-vacuity, and what a double Put does: the pool then hands the same object to two owners *)
Example C20_double_put_breaks_exclusivity :
  p_owned (prun p_init [PGet 1 None; PPut 1 0; PPut 1 0; PGet 2 (Some 0); PGet 3 (Some 0)]) = [(0, 3); (0, 2)].
Proof. reflexivity. Qed.
Example C20_nonvacuous :
  find_get 512 4096 1000 = Some 1%N /\ find_put 512 4096 3000 = Some 2%N /\ find_get 512 3000 2500 = Some 3%N /\
  class_size 512 3000 3 = 3000%N /\ find_get 512 4096 4097 = None /\ find_put 512 4096 511 = None.
Proof. vm_compute. repeat split. Qed.

(* the tie to the source: every syntactic control-flow path of handleRequest and handleRequestForFunction, as
   tools/gopools2v regenerates them from server/server.go on every run (Pool/PoolSitesGen.v), uses and returns its
   pooled argument and reply object only while it holds it and returns it at most once; and the hand model
   handle_ops (Pool/Pool.v) is, for every outcome of its six conditions, the skeleton of one of those paths *)
Theorem C20_every_handler_path_keeps_the_discipline :
  forallb (fun p => disciplined 0 0 (snd p)) handler_paths = true.
Proof. exact every_path_is_disciplined. Qed.
Theorem C20_every_handler_path_is_bracketed : forall name ops,
  In (name, ops) handler_paths -> bracketed 0 0 (skeleton ops) = true.
Proof.
  intros name ops Hin. apply disciplined_bracketed.
  pose proof every_path_is_disciplined as H. rewrite forallb_forall in H. exact (H (name, ops) Hin).
Qed.
Theorem C20_hand_model_is_the_source_s : forall f,
  exists name ops, In (name, ops) handler_paths /\ handle_ops f = skeleton ops.
Proof.
  intro f. pose proof hand_model_is_a_generated_path as H. rewrite forallb_forall in H.
  specialize (H f (all_flags_complete f)). apply existsb_exists in H as ([name ops] & Hin & Heq).
  exists name, ops. split; [exact Hin | apply hops_eqb_eq, Heq].
Qed.

(* the server keeps the discipline `bracketed` on the pooled argument / reply objects of a request on every
   path through handleRequest (codec missing, undecodable arguments, PreCall veto, handler error
   with or without a reply, one-way, two-way): each object is put back at most once, only after it
   was obtained *)
Theorem C20_handle_request_keeps_the_discipline : forall f, bracketed 0 0 (handle_ops f) = true.
Proof.
  intro f. destruct (C20_hand_model_is_the_source_s f) as (name & ops & Hin & ->).
  exact (C20_every_handler_path_is_bracketed name ops Hin).
Qed.

(* frame buffers, about the code as it is now: every control-flow path of every function that materialises a frame in a
   pooled buffer (regenerated from the source on every run, tools/gowrites2v -> Wire/SharedGen.v) takes the buffer, fills
   it, writes it at most once and gives it back at most once - in particular no path, error paths included, puts a
   buffer back twice or uses it after it has been put back *)
Theorem C20_frame_buffers_follow_the_discipline_at_every_site :
  forallb (fun sp => Wire.Shared.safe_from 0 (snd sp)) Wire.SharedGen.site_paths = true /\
  forallb (fun sp => Nat.leb (Wire.Shared.count_writes (snd sp)) 1) Wire.SharedGen.site_paths = true.
Proof. exact (conj Wire.SharedGenProofs.all_sites_safe Wire.SharedGenProofs.all_sites_write_once). Qed.

Print Assumptions C20_get_fits_its_class.
Print Assumptions C20_put_is_big_enough.
Print Assumptions C20_get_returns_requested_length.
Print Assumptions C20_exclusive_ownership.
Print Assumptions C20_single_owner.
Print Assumptions C20_handle_request_keeps_the_discipline.
Print Assumptions C20_every_handler_path_keeps_the_discipline.
Print Assumptions C20_every_handler_path_is_bracketed.
Print Assumptions C20_hand_model_is_the_source_s.
Print Assumptions C20_frame_buffers_follow_the_discipline_at_every_site.
