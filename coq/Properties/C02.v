(* C02 — Decoder totality, frame confinement, no stale bytes, maximum length, resynchronisation.
   The statements of the property; each follows in a few lines from the general theorems of
   Wire/CodecProofs.v, Wire/CodecRoundTrip.v, Wire/StreamProofs.v and Wire/EncodeProofs.v. *)
From Coq Require Import List NArith.
From RPCX Require Import Wire.Bytes Wire.Header Wire.Codec Wire.CodecSpec Wire.CodecProofs Wire.CodecRoundTrip Wire.StreamProofs Wire.EncodeProofs Wire.DecodeGen.
Import ListNotations.
Open Scope N_scope.

(* (a) confinement: a successful Decode consumed exactly header + length + body, and the body is
   laid out as four consecutive length-prefixed sections (then optional slack); the message's
   fields are exactly those ranges. *)
Theorem C02_success_consumes_one_frame : forall env maxlen old stream o rest,
  decode env maxlen old stream = (Ok o, rest) ->
  exists h lb body,
    stream = h ++ lb ++ body ++ rest /\ length h = 12%nat /\ byte_at h 0 = magic /\
    length lb = 4%nat /\ lenN body = get32 lb /\ (maxlen = 0 \/ get32 lb <= maxlen) /\
    body_spec env h body = Ok (o_msg o).
Proof.
  intros env maxlen old stream o rest H.
  destruct (decode_cases env maxlen stream) as [(e & r & _ & E)|(h & lb & body & r & -> & Hh & Hm & Hl & Hb & Hx & E)];
    rewrite E in H; [discriminate|].
  exists h, lb, body. destruct (body_spec env h body); try discriminate. injection H as <- <-. auto 10.
Qed.

Theorem C02_fields_are_the_delimited_ranges : forall env h body m,
  body_spec env h body = Ok m ->
  exists l1 l2 l3 mb l4 raw slack,
    body = l1 ++ m_path m ++ l2 ++ m_meth m ++ l3 ++ mb ++ l4 ++ raw ++ slack /\
    length l1 = 4%nat /\ get32 l1 = lenN (m_path m) /\
    length l2 = 4%nat /\ get32 l2 = lenN (m_meth m) /\
    length l3 = 4%nat /\ get32 l3 = lenN mb /\
    length l4 = 4%nat /\ get32 l4 = lenN raw /\
    meta_layout (m_meta m) mb /\
    unzip_spec env h raw = Ok (m_payload m) /\ m_hdr m = h.
Proof.
  intros env h body m H. unfold body_spec in H.
  apply bind_Ok_inv in H as ([x1 r1] & E1 & H). apply bind_Ok_inv in H as ([x2 r2] & E2 & H).
  apply bind_Ok_inv in H as ([x3 r3] & E3 & H). apply bind_Ok_inv in H as (meta & Em & H).
  apply bind_Ok_inv in H as ([x4 r4] & E4 & H). apply bind_Ok_inv in H as (pl & Eu & H).
  cbn [fst snd] in *. injection H as <-.
  apply sect_ok_inv in E1 as (l1 & -> & L1 & G1), E2 as (l2 & -> & L2 & G2),
                        E3 as (l3 & -> & L3 & G3), E4 as (l4 & -> & L4 & G4).
  exists l1, l2, l3, x3, l4, x4, r4.
  repeat split; auto.
  rewrite meta_guard in Em. now apply meta_spec_ok_inv in Em as (kvs' & -> & Hl).
Qed.

(* the slice-level decoder (backing arrays, len, cap, panics) computes exactly the list-level
   specification on the bytes of the body: capacity beyond len is never observed *)
Theorem C02_decoder_refines_spec : forall env h data,
  wf_slice data -> s_off data = 0 ->
  decode_body env h data = body_spec env h (contents data).
Proof. intros env h data Hwf _. now apply decode_body_refines. Qed.

(* (c) the decoded message is a function of the stream alone: the previous contents of a reused
   message object (fields, backing array beyond len) never show *)
Theorem C02_independent_of_object_history : forall env maxlen old1 old2 stream,
  out_msg (fst (decode env maxlen old1 stream)) = out_msg (fst (decode env maxlen old2 stream)) /\
  snd (decode env maxlen old1 stream) = snd (decode env maxlen old2 stream).
Proof.
  intros env maxlen old1 old2 stream.
  destruct (decode_cases env maxlen stream) as [(e & r & _ & E)|(h & lb & body & r & _ & _ & _ & _ & _ & _ & E)];
    rewrite !E; [split; reflexivity|].
  destruct (body_spec env h body); split; reflexivity.
Qed.

(* (f) never crashes: neither a panic nor a recovered panic is a reachable outcome *)
Theorem C02_never_panics : forall env maxlen old stream,
  fst (decode env maxlen old stream) <> Panic /\
  fst (decode env maxlen old stream) <> Err RecoveredPanic.
Proof.
  intros env maxlen old stream.
  destruct (decode_cases env maxlen stream) as [(e & r & He & E)|(h & lb & body & r & _ & _ & _ & _ & _ & _ & E)];
    rewrite E; [now apply clean_Err|].
  destruct (body_spec_clean env h body) as [Hp He].
  destruct (body_spec env h body); [split; discriminate|apply clean_Err; congruence|congruence].
Qed.

(* (d) a frame longer than the configured maximum is rejected after the 16 header+length bytes,
   before its body is read *)
Theorem C02_too_long_rejected_before_body : forall env maxlen old h lb tail,
  length h = 12%nat -> byte_at h 0 = magic -> length lb = 4%nat ->
  0 < maxlen -> maxlen < get32 lb ->
  decode env maxlen old (h ++ lb ++ tail) = (Err TooLong, tail).
Proof.
  intros env maxlen old h lb tail Hh Hm Hl H0 Hgt. rewrite decode_after_header by assumption.
  now rewrite (proj2 (N.ltb_lt _ _) H0), (proj2 (N.ltb_lt _ _) Hgt).
Qed.

(* (e) after a successful decode the reader stands on the first byte after the frame:
   concatenated frames decode to the same sequence *)
Theorem C02_concatenated_frames_resynchronise : forall env maxlen ms old fuel,
  Forall (frame_ok env maxlen) ms -> (length ms <= fuel)%nat ->
  decode_all fuel env maxlen old (flat_map (frame_bytes env) ms) = (ms, None).
Proof. exact decode_all_frames. Qed.

(* non-vacuity + the pre-repair behaviour is excluded: a section length that overruns the frame
   is an error on a fresh object AND on an object whose buffer still holds an earlier, longer
   frame (the case in which the unrepaired decoder returned the earlier frame's path). *)
Definition no_env : comp_env := fun _ => None.
Definition bad_frame : bytes := [8;0;0;0;0;0;0;0;0;0;0;0] ++ put32 4 ++ put32 10.
Definition old_obj : msgobj := mkObj (mkMsg [8;0;0;0;0;0;0;0;0;0;0;0] [83;69;67] [77] [] [])
                                     (put32 10 ++ [83;69;67;82;69;84;80;65;84;72] ++ put32 1 ++ [77] ++ put32 0 ++ put32 0).
Example C02_overrun_is_an_error_fresh : fst (decode no_env 0 fresh_obj bad_frame) = Err InvalidFrame.
Proof. vm_compute. reflexivity. Qed.
Example C02_overrun_is_an_error_reused : fst (decode no_env 0 old_obj bad_frame) = Err InvalidFrame.
Proof. vm_compute. reflexivity. Qed.

(* the tie to the source: the two bounds-checked readers the decoder model is built from - the `section` closure of
   Message.Decode and decodeMetadata - are, statement by statement, what tools/godecode2v regenerates from
   protocol/message.go on every run (Wire/DecodeGen.v); a change of a guard, an offset, a slice bound or the loop in
   the Go source changes the generated definitions and these two equalities stop checking *)
Theorem C02_section_is_the_source_s : forall data n, gen_section data n = section data n.
Proof. reflexivity. Qed.
Theorem C02_decode_metadata_is_the_source_s : forall fuel l data n acc,
  gen_dec_meta fuel l data n acc = dec_meta fuel l data n acc.
Proof. reflexivity. Qed.

Print Assumptions C02_success_consumes_one_frame.
Print Assumptions C02_fields_are_the_delimited_ranges.
Print Assumptions C02_decoder_refines_spec.
Print Assumptions C02_independent_of_object_history.
Print Assumptions C02_never_panics.
Print Assumptions C02_too_long_rejected_before_body.
Print Assumptions C02_concatenated_frames_resynchronise.
Print Assumptions C02_section_is_the_source_s.
Print Assumptions C02_decode_metadata_is_the_source_s.
