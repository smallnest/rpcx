(* C12 — Round-robin is exact and weighted round-robin is exactly proportional.
   The statements of the property; each follows in a few lines from the general theorems of
   Base/Cyclic.v, Select/RoundRobinProofs.v, SWRRProofs.v and SWRREqual.v, but for
   C12_round_robin_after_any_history, which is an induction over the history. *)
From Coq Require Import List ZArith Permutation.
From RPCX Require Import Base.Cyclic Select.RoundRobin Select.RoundRobinProofs Select.SWRR Select.SWRRProofs Select.SWRREqual
  XClient.Metadata XClient.MetadataProofs.
Import ListNotations.
Open Scope nat_scope.

(* Between updates, any n consecutive selections - from any cursor value - are a permutation of
   the n servers (each exactly once when the server names are distinct). *)
Theorem C12_round_robin_exact : forall s : rr_state,
  length (rr_servers s) <> 0 ->
  Permutation (fst (rr_selects (length (rr_servers s)) s)) (map Some (rr_servers s)).
Proof.
  (* rr_selects is convertible with Cyclic.selects rr_select *)
  intros s Hn. apply (selects_perm (rr_cursor 0)).
  intros E. rewrite E in Hn. exact (Hn eq_refl).
Qed.

(* ... in the state reached by any history of updates and selections the server list is the last
   published one, so the statement above applies to it. *)
Theorem C12_round_robin_after_any_history : forall ops s,
  rr_servers (fst (rr_run s ops)) =
    fold_left (fun ss o => match o with RRUpdate ss' => ss' | RRSelect => ss end) ops (rr_servers s).
Proof.
  induction ops as [|o os IH]; intros s; [reflexivity|].
  cbn [rr_run fold_left]. destruct o as [ss'|]; cbn [rr_step].
  - specialize (IH (rr_update s ss')). destruct (rr_run (rr_update s ss') os). exact IH.
  - rewrite <- (rr_select_servers s). destruct (rr_select s) as [r s'].
    specialize (IH s'). destruct (rr_run s' os). exact IH.
Qed.

(* The ring built by smooth weighted round-robin contains server i exactly w_i times. *)
Theorem C12_weighted_ring_counts : forall ws : list Z,
  Forall (fun w => 0 <= w)%Z ws -> (0 < sumZ ws)%Z ->
  length (swrr_ring ws) = Z.to_nat (sumZ ws) /\
  Forall (fun x => x < length ws) (swrr_ring ws) /\
  forall i, i < length ws -> cnt (swrr_ring ws) i = nth i ws 0%Z.
Proof. intros ws Hnn Hpos. destruct (swrr_ring_count ws Hnn Hpos) as (Hlen & Hall & Hcnt). auto. Qed.

(* Every window of W = sum of weights consecutive selections, from any cursor position,
   picks server i exactly weight_i times (weights as createWeighted reads them). *)
Theorem C12_weighted_window_proportional : forall (parsed : list (option Z)) (cur : nat),
  let ws := map clamp_weight parsed in
  (0 < sumZ ws)%Z ->
  let s := {| wrr_n := length ws; wrr_ring := swrr_ring ws; wrr_cur := cur |} in
  forall i, i < length ws ->
  Z.of_nat (count_occ onat_eq_dec (fst (wrr_selects (Z.to_nat (sumZ ws)) s)) (Some i)) = nth i ws 0%Z.
Proof. intros parsed cur ws Hpos s i _. apply wrr_window_counts; [apply clamp_nonneg|exact Hpos]. Qed.

(* with equal weights the weighted selector behaves as plain round-robin: for n servers of the same positive
   weight w, from any cursor, selection k picks server (cursor + k) mod n - so every n consecutive selections pick
   every server exactly once *)
Theorem C12_equal_weights_is_round_robin : forall n w cur k, 1 <= n -> (0 < w)%Z ->
  let s := {| wrr_n := n; wrr_ring := swrr_ring (repeat w n); wrr_cur := cur |} in
  fst (wrr_selects k s) = map (fun t => Some ((cur + t) mod n)) (seq 0 k).
Proof.
  intros n w cur k Hn Hw. apply equal_weights_round_robin; [intros ->; inversion Hn|exact Hn|exact Hw].
Qed.

(* An update replaces the whole state by a freshly built one: a changed weight is honoured from
   the next selection on. *)
Theorem C12_update_is_fresh_build : forall s p, wrr_step s (WUpdate p) = (wrr_new p, []).
Proof. reflexivity. Qed.

(* the weight of a server, from the raw metadata string a registry publishes for it (createWeighted with
   url.ParseQuery and strconv.Atoi as modelled in Server/Gateway.v): the clamp of its weight field - the [parsed]
   input of the theorems above - and never negative; metadata that does not parse, or without a readable integer
   weight, weighs 1 *)
Theorem C12_weight_from_raw_metadata : forall meta,
  weight_raw meta = clamp_weight (weight_field meta) /\ (0 <= weight_raw meta)%Z.
Proof. split; [apply weight_raw_is_clamped_field | apply weight_raw_nonneg]. Qed.

Open Scope N_scope.
Example C12_weight_nonvacuous :
  weight_raw [119;101;105;103;104;116;61;55] = 7%Z /\                 (* weight=7 *)
  weight_raw [119;101;105;103;104;116;61;45;51] = 0%Z /\              (* weight=-3 *)
  weight_raw [119;101;105;103;104;116;61;43;52] = 1%Z /\              (* weight=+4: '+' is a blank in a query string *)
  weight_raw [119;37;54;53;105;103;104;116;61;54] = 6%Z /\            (* w%65ight=6 *)
  weight_raw [37;122;122;38;119;101;105;103;104;116;61;52] = 1%Z.      (* %zz&weight=4: does not parse *)
Proof. vm_compute. repeat split. Qed.
Close Scope N_scope.

(* non-vacuity: a concrete non-trivial weight vector meets the premises, and the ring is the
   familiar smooth sequence *)
Example C12_nonvacuous :
  Forall (fun w => 0 <= w)%Z [5; 1; 1]%Z /\ (0 < sumZ [5; 1; 1])%Z /\
  swrr_ring [5; 1; 1]%Z = [0; 0; 1; 0; 2; 0; 0].
Proof. repeat split; try (repeat constructor; discriminate). Qed.

Print Assumptions C12_round_robin_exact.
Print Assumptions C12_round_robin_after_any_history.
Print Assumptions C12_weighted_ring_counts.
Print Assumptions C12_weighted_window_proportional.
Print Assumptions C12_update_is_fresh_build.
Print Assumptions C12_equal_weights_is_round_robin.
Print Assumptions C12_weight_from_raw_metadata.
