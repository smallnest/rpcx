(* C15 — Rejected connections and requests never reach a handler, on any ingress.
   The statements of the property; each follows in a few lines from the general theorems of Server/IngressProofs.v,
   Server/PluginsProofs.v, Server/StockPluginsProofs.v and Server/GateProofs.v. *)
From Coq Require Import List NArith Arith Bool String.
From RPCX Require Import Server.Dispatch Server.Ingress Server.IngressProofs Server.Plugins Server.PluginsGen Server.PluginsProofs
  Server.StockPlugins Server.StockPluginsProofs.
From RPCX Require Server.Gate Server.GateProofs.
Import ListNotations.
Open Scope string_scope.

(* For every ingress (native, HTTP gateway, JSON-RPC), every configuration of rejecting stages
   (accept plugin, post-read plugin, authentication, pre-call plugin), every token (missing, wrong,
   right), every flag combination of the request and every service table / handler: a rejected
   request runs no handler and the requester gets no result. *)
Theorem C15_rejected_never_reaches_a_handler : forall find codec_ok decodable handler hmeta ing c rq,
  rejected ing c rq = true ->
  (find (q_path (i_q rq)) (q_meth (i_q rq)) <> TRouter \/ ic_precall c = false) ->
  o_invoked (serve find codec_ok decodable handler hmeta ing c rq) = [] /\
  is_result (o_out (serve find codec_ok decodable handler hmeta ing c rq)) = false.
Proof.
  intros * H Hr. destruct ing;
    [apply native_kept_out; assumption | apply http_like_kept_out, H | apply jsonrpc_kept_out, http_like_kept_out, H].
Qed.

(* on the native protocol a connection that failed authentication is closed *)
Theorem C15_native_auth_failure_closes : forall find codec_ok decodable handler hmeta c rq,
  ic_accept_veto c = false -> ic_postread c = false -> q_hb (i_q rq) = false ->
  auth_ok c (i_token rq) = false ->
  o_closed (serve find codec_ok decodable handler hmeta Native c rq) = true /\
  o_invoked (serve find codec_ok decodable handler hmeta Native c rq) = [].
Proof.
  intros * H1 H2 H3 H4. cbn [serve]. rewrite native_auth_failure by assumption. split; reflexivity.
Qed.

(* the heartbeat flag never lets a request reach a handler (natively it is echoed; on the HTTP
   ingresses it is ignored and authentication applies: covered by the first theorem) *)
Theorem C15_heartbeat_never_reaches_a_handler : forall find codec_ok decodable handler hmeta c rq,
  q_hb (i_q rq) = true ->
  o_invoked (serve find codec_ok decodable handler hmeta Native c rq) = [] /\
  is_result (o_out (serve find codec_ok decodable handler hmeta Native c rq)) = false.
Proof.
  intros * H. cbn [serve]. destruct (ic_accept_veto c || ic_postread c) eqn:E; [now rewrite native_dropped|].
  apply orb_false_iff in E as [Ha Hp]. now rewrite native_heartbeat.
Qed.

(* The same over plugin chains.  [accept], [postread], [precall] are the verdicts of the plugins registered for the
   three stages, in registration order (true = rejects); how a chain combines its verdicts is read from the table
   regenerated from server/plugin.go on every run (Server/PluginsGen.v): whichever plugin rejects - first, last or in
   the middle - the request runs no handler and yields no result, on every ingress. *)
Theorem C15_any_rejecting_plugin_wherever_registered :
  forall find codec_ok decodable handler hmeta accept postread precall auth ing rq,
  In true accept \/ In true postread \/
  (In true precall /\ (match ing with Native => q_hb (i_q rq) | _ => false end) = false) ->
  find (q_path (i_q rq)) (q_meth (i_q rq)) <> TRouter \/ ~ In true precall ->
  let c := cfg_of_plugins accept postread precall auth in
  o_invoked (serve find codec_ok decodable handler hmeta ing c rq) = [] /\
  is_result (o_out (serve find codec_ok decodable handler hmeta ing c rq)) = false.
Proof.
  intros * Hrej Hrouter. apply C15_rejected_never_reaches_a_handler; [now apply rejected_by_plugins|].
  destruct Hrouter as [H|H]; [now left|right; now apply cfg_precall_false].
Qed.

(* the obligation on the generated table: the three rejecting stages stop at the first rejection *)
Theorem C15_rejecting_stages_stop_at_the_first_rejection :
  kind_eqb (kind_of plugin_chains "DoPostConnAccept") FirstReject &&
  kind_eqb (kind_of plugin_chains "DoPostReadRequest") FirstReject &&
  kind_eqb (kind_of plugin_chains "DoPreCall") FirstReject = true.
Proof. exact rejecting_stages_first_reject. Qed.

(* the stock access-control plugins (serverplugin/): the whitelist admits a connection exactly when its remote address
   is well-formed and the list or one of the masks names it; the blacklist refuses exactly those; the rate limiter
   lets exactly the first [capacity] requests of a burst pass; and a connection that the configured plugins do not
   all admit reaches no handler and gets no result on any ingress *)
Theorem C15_whitelist_rule : forall addr_ok in_list in_masks,
  whitelist_admits addr_ok in_list in_masks = true <-> addr_ok = true /\ (in_list = true \/ In true in_masks).
Proof. intros. unfold whitelist_admits. now rewrite andb_true_iff, orb_true_iff, existsb_id. Qed.

Theorem C15_blacklist_rule : forall addr_ok in_list in_masks,
  blacklist_admits addr_ok in_list in_masks = false <-> addr_ok = true /\ (in_list = true \/ In true in_masks).
Proof. intros. rewrite blacklist_whitelist, negb_false_iff. apply C15_whitelist_rule. Qed.

Theorem C15_rate_limit_passes_exactly_capacity : forall capacity n,
  List.length (filter (fun b => b) (rate_run capacity 0 n)) = Nat.min capacity n.
Proof. intros. rewrite rate_run_passes. now rewrite Nat.sub_0_r. Qed.

Theorem C15_refused_connection_reaches_no_handler :
  forall find codec_ok decodable handler hmeta ing verdicts postread auth precall rq,
  all_admit verdicts = false ->
  let c := mkICfg (negb (all_admit verdicts)) postread auth precall in
  o_invoked (serve find codec_ok decodable handler hmeta ing c rq) = [] /\
  is_result (o_out (serve find codec_ok decodable handler hmeta ing c rq)) = false.
Proof. intros * H. apply accept_veto_kept_out. now rewrite H. Qed.

Example C15_chain_nonvacuous :
  ic_precall (cfg_of_plugins [] [] [false; true; false] false) = true /\
  ic_precall (cfg_of_plugins [] [] [false; false] false) = false.
Proof. vm_compute. split; reflexivity. Qed.

Example C15_nonvacuous :
  rejected Gateway (mkICfg true false true false) (mkIRq TokRight false (mkReq 1 1 1 1 false false 1)) = true /\
  rejected Native (mkICfg false false true false) (mkIRq TokWrong false (mkReq 1 1 1 1 false true 1)) = true.
Proof. split; reflexivity. Qed.

(* The native connection loop with its refusals answered by the reader (Server/Gate.v), any number of connections,
   any interleaving of reads and completions: every handler invocation belongs to a request that was read and that
   neither a PostReadRequest plugin nor AuthFunc refused. *)
Theorem C15_native_loop_refused_requests_reach_no_handler : forall find codec_ok decodable handler hmeta limited denied es i,
  In i (invoked (Gate.gbase (Gate.grun find codec_ok decodable handler hmeta limited denied Gate.ginit es))) ->
  exists c rid q, In (CRead c rid q) es /\ Gate.refusal limited denied q = None /\
                  In i (snd (process find codec_ok decodable handler hmeta q)).
Proof. intros *. apply (GateProofs.G_invoked (GateProofs.ginv_of_run _ _ _ _ _ _ _ es)). Qed.

(* only a failed authentication closes the connection, and heartbeats are not authenticated *)
Theorem C15_only_failed_authentication_closes : forall limited denied q t,
  Gate.refusal limited denied q = Some (t, true) ->
  q_hb q = false /\ denied (q_path q) (q_meth q) (q_args q) = Some t /\ limited (q_path q) (q_meth q) (q_args q) = None.
Proof. exact GateProofs.only_auth_closes. Qed.

Print Assumptions C15_rejected_never_reaches_a_handler.
Print Assumptions C15_any_rejecting_plugin_wherever_registered.
Print Assumptions C15_rejecting_stages_stop_at_the_first_rejection.
Print Assumptions C15_native_auth_failure_closes.
Print Assumptions C15_heartbeat_never_reaches_a_handler.
Print Assumptions C15_whitelist_rule.
Print Assumptions C15_blacklist_rule.
Print Assumptions C15_rate_limit_passes_exactly_capacity.
Print Assumptions C15_refused_connection_reaches_no_handler.
Print Assumptions C15_native_loop_refused_requests_reach_no_handler.
Print Assumptions C15_only_failed_authentication_closes.
