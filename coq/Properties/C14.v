(* C14 — Discovery updates converge to the last published server set, filtered.
   The statements of the property; each follows in a few lines from the general theorems of
   XClient/DiscoveryProofs.v and XClient/MetadataProofs.v. *)
From Coq Require Import List Arith Bool NArith.
From RPCX Require Import Wire.Bytes Server.GatewayProofs XClient.Discovery XClient.DiscoveryProofs XClient.Metadata XClient.MetadataProofs.
Import ListNotations.
Close Scope N_scope.

(* For every sequence of publications interleaved in every possible way with the client's watch
   loop (one channel of capacity 10 per watcher; a full channel drops its oldest snapshot): once
   updates stop and the loop has emptied the channel, the snapshot it applied last is the last one
   published.  An earlier update never overwrites a later one. *)
Theorem C14_converges_to_last_published : forall (snapshot : Type) (es : list (@devent snapshot)) u0,
  let s := drun (mkW [] u0 None) es in
  forall u, lastpub s = Some u -> applied (drain (length (q s)) s) = Some u.
Proof.
  intros snapshot es u0 s u Hu. unfold s in *. rewrite drained_applies_newest.
  rewrite (tracks_newest lastpub lastpub_dstep) in Hu. exact (newest_from es u Hu u0).
Qed.

(* lastpub, the ghost field the first theorem is stated with, is the last Pub of the run *)
Theorem C14_last_published_is_last_Pub : forall (snapshot : Type) (es : list (@devent snapshot)) s,
  lastpub (drun s es) = fold_left (fun acc e => match e with Pub u => Some u | Consume => acc end) es (lastpub s).
Proof. intros snapshot. exact (tracks_newest lastpub lastpub_dstep). Qed.

(* what the client keeps of an applied snapshot: exactly the servers that are not marked inactive and
   (when a group is configured) announce that group among their group values *)
Theorem C14_filter_keeps_exactly : forall group servers k p,
  In (k, p) (filter_servers group servers) <-> In (k, p) servers /\ keep_server group p = true.
Proof. intros group servers k p. unfold filter_servers. rewrite filter_In. cbn. tauto. Qed.

Theorem C14_keep_rule : forall group kvs,
  keep_server group (Some kvs) = true <->
  first_val K_STATE kvs <> Some V_INACTIVE /\ (group = 0 \/ In group (all_vals K_GROUP kvs)).
Proof.
  intros group kvs. unfold keep_server.
  rewrite andb_true_iff, negb_true_iff, orb_true_iff, Nat.eqb_eq, (existsb_eq_in _ _ Nat.eqb_eq). apply and_iff_compat_r.
  destruct (first_val K_STATE kvs) as [v|]; [rewrite Nat.eqb_neq|]; split; congruence.
Qed.

(* ---- on the raw metadata strings (XClient/Metadata.v: url.ParseQuery as modelled in Server/Gateway.v) ---- *)
(* a server is kept exactly when its metadata does not parse, or its state is not "inactive" and - if the client
   has a group - one of its group values is that group *)
Theorem C14_keep_rule_on_raw_metadata : forall group meta,
  keep_raw group meta = true <->
  match parse_meta meta with
  | None => True
  | Some kvs => q_get S_STATE kvs <> S_INACTIVE /\ (group = [] \/ In group (q_all S_GROUP kvs))
  end.
Proof.
  intros group meta. unfold keep_raw. destruct (parse_meta meta) as [kvs|]; [|tauto].
  rewrite andb_true_iff, negb_true_iff, beq_false. apply and_iff_compat_l.
  destruct group as [|c g]; [intuition reflexivity|]. rewrite (existsb_eq_in _ _ beq_eq). intuition discriminate.
Qed.

Theorem C14_filter_on_raw_metadata : forall group servers k m,
  In (k, m) (filter_raw group servers) <-> In (k, m) servers /\ keep_raw group m = true.
Proof. intros group servers k m. unfold filter_raw. rewrite filter_In. reflexivity. Qed.

(* the raw rule IS the interned rule of C14_keep_rule, for every injective numbering of the strings that gives the
   reserved words their numbers *)
Theorem C14_raw_rule_refines_to_the_model : forall (intern : bytes -> nat),
  (forall a b, intern a = intern b -> a = b) ->
  intern S_STATE = K_STATE -> intern S_GROUP = K_GROUP -> intern S_INACTIVE = V_INACTIVE -> intern [] = 0 ->
  forall group meta,
  keep_raw group meta = keep_server (intern group) (option_map (imap intern) (parse_meta meta)).
Proof.
  intros intern Hinj Hs Hg Hi He group meta. unfold keep_raw, keep_server.
  destruct (parse_meta meta) as [kvs|]; [|reflexivity]. cbn [option_map].
  rewrite <- Hs, <- Hg, <- Hi, <- He, (first_val_intern intern Hinj) by discriminate.
  rewrite (all_vals_intern intern Hinj), (eqb_intern intern Hinj). destruct group; reflexivity.
Qed.

(* non-vacuity: "st%61te=inactive" is state=inactive; "state=inactive;x" does not parse and is left alone *)
Open Scope N_scope.
Example C14_raw_nonvacuous :
  keep_raw [] [115;116;37;54;49;116;101;61;105;110;97;99;116;105;118;101] = false /\
  keep_raw [98] [115;116;97;116;101;61;105;110;97;99;116;105;118;101;59;120] = true /\
  keep_raw [98] [103;114;111;117;112;61;97;38;103;114;111;117;112;61;98] = true /\
  keep_raw [99] [103;114;111;117;112;61;97;38;103;114;111;117;112;61;98] = false.
Proof. vm_compute. repeat split. Qed.
Close Scope N_scope.

(* non-vacuity: 12 rapid publications with the watch loop stalled overflow the channel; draining
   still ends on the last one *)
Example C14_nonvacuous :
  let s := drun (mkW [] (Some 0) None) (map Pub [1;2;3;4;5;6;7;8;9;10;11;12]) in
  q s = [3;4;5;6;7;8;9;10;11;12] /\ applied (drain (length (q s)) s) = Some 12.
Proof. vm_compute. split; reflexivity. Qed.

Print Assumptions C14_converges_to_last_published.
Print Assumptions C14_last_published_is_last_Pub.
Print Assumptions C14_filter_keeps_exactly.
Print Assumptions C14_keep_rule.
Print Assumptions C14_keep_rule_on_raw_metadata.
Print Assumptions C14_filter_on_raw_metadata.
Print Assumptions C14_raw_rule_refines_to_the_model.
