(* Size classes (get_fits, put_is_big_enough); PInv: the ids in the pool and in owners' hands are distinct and below
   p_next, kept by every step that obeys op_ok (pstep_ids). *)
From Coq Require Import List NArith Arith Lia Permutation.
From RPCX Require Import Pool.Pool.

Open Scope N_scope.

Lemma least_class_spec pmin size fuel : forall i,
  let r := least_class fuel i (pmin * 2 ^ i) size in
  i <= r /\ (size <= pmin * 2 ^ r \/ r = i + N.of_nat fuel) /\
  (forall j, i <= j < r -> pmin * 2 ^ j < size).
Proof.
  induction fuel as [|f IH]; intros i; cbn [least_class].
  - split; [lia|]. split; [right; lia|]. intros j Hj. lia.
  - destruct (N.leb_spec size (pmin * 2 ^ i)) as [H|H].
    + split; [lia|]. split; [left; exact H|]. intros j Hj. lia.
    + replace (2 * (pmin * 2 ^ i)) with (pmin * 2 ^ (i + 1)) by (rewrite N.pow_add_r; lia).
      destruct (IH (i + 1)) as (H1 & H2 & H3).
      split; [lia|]. split; [destruct H2; [now left|right; lia]|].
      intros j Hj. destruct (N.eq_dec j i) as [->|Hne]; [exact H|apply H3; lia].
Qed.

Lemma greatest_class_spec pmin cap fuel : forall i, pmin * 2 ^ i <= cap ->
  let r := greatest_class fuel i (pmin * 2 ^ i) cap in
  i <= r /\ pmin * 2 ^ r <= cap.
Proof.
  induction fuel as [|f IH]; intros i Hle; cbn [greatest_class]; [split; [lia|exact Hle]|].
  replace (2 * (pmin * 2 ^ i)) with (pmin * 2 ^ (i + 1)) by (rewrite N.pow_add_r; lia).
  destruct (N.leb_spec (pmin * 2 ^ (i + 1)) cap) as [H|H]; [|split; [lia|exact Hle]].
  destruct (IH (i + 1) H) as (H1 & H2). split; [lia|exact H2].
Qed.

Theorem get_fits pmin pmax size i :
  0 < pmin -> pmax < 2 ^ 64 ->
  find_get pmin pmax size = Some i -> size <= class_size pmin pmax i.
Proof.
  intros Hmin Hbig. unfold find_get, class_size.
  destruct (N.ltb_spec pmax size) as [|Hs]; [discriminate|].
  destruct (least_class_spec pmin size FUEL 0) as (_ & H2 & _).
  rewrite N.pow_0_r, N.mul_1_r in H2. set (k := least_class FUEL 0 pmin size) in *.
  destruct (last_class pmin pmax <? k); [discriminate|]. intros [= <-].
  apply N.min_glb; [|exact Hs]. destruct H2 as [H2| ->]; [exact H2|].
  (* the fuel ran out: class 64, whose buffers exceed every pmax *)
  change (0 + N.of_nat FUEL) with 64. nia.
Qed.

Theorem put_is_big_enough pmin pmax cap i :
  find_put pmin pmax cap = Some i -> class_size pmin pmax i <= cap.
Proof.
  unfold find_put, class_size.
  destruct (N.ltb_spec pmax cap) as [|Hc]; [discriminate|].
  destruct (N.ltb_spec cap pmin) as [|Hc2]; [discriminate|].
  destruct (greatest_class_spec pmin cap FUEL 0) as (_ & H2); [rewrite N.pow_0_r; lia|].
  rewrite N.pow_0_r, N.mul_1_r in H2. set (k := greatest_class FUEL 0 pmin cap) in *.
  destruct (last_class pmin pmax <? k); [discriminate|]. intros [= <-].
  apply N.le_trans with (pmin * 2 ^ k); [apply N.le_min_l|exact H2].
Qed.

Close Scope N_scope.

Definition all_ids (s : pstate) : list nat := p_free s ++ map fst (p_owned s).

Lemma NoDup_app_r {A} (a b : list A) : NoDup (a ++ b) -> NoDup b.
Proof. induction a as [|x a IH]; cbn; intros H; [exact H|]. inversion H; auto. Qed.

Definition PInv (s : pstate) : Prop :=
  NoDup (all_ids s) /\ forall o, In o (all_ids s) -> o < p_next s.

Lemma remove_nth_perm {A} {l : list A} {k x} : nth_error l k = Some x -> Permutation l (x :: remove_nth k l).
Proof.
  revert k. induction l as [|y l IH]; intros [|k] H; cbn in *; try discriminate.
  - injection H as ->. reflexivity.
  - rewrite (IH k H) at 1. apply perm_swap.
Qed.

Lemma remove_pair_perm o w l : In (o, w) l -> Permutation l ((o, w) :: remove_pair o w l).
Proof.
  induction l as [|[o' w'] l IH]; intros H; [destruct H|]. cbn.
  destruct (Nat.eqb_spec o o') as [->|Ho], (Nat.eqb_spec w w') as [->|Hw]; cbn; try reflexivity;
    (destruct H as [H|H]; [injection H; intros; congruence|]);
    rewrite (IH H) at 1; apply perm_swap.
Qed.

Lemma pstep_ids s op : op_ok s op ->
  (Permutation (all_ids s) (all_ids (pstep s op)) /\ p_next (pstep s op) = p_next s) \/
  (Permutation (p_next s :: all_ids s) (all_ids (pstep s op)) /\ p_next (pstep s op) = S (p_next s)).
Proof.
  assert (Hnew : forall w, Permutation (p_next s :: all_ids s)
                   (all_ids (mkP (p_free s) ((p_next s, w) :: p_owned s) (S (p_next s))))) by (intro; apply Permutation_middle).
  unfold all_ids in *. destruct op as [w [k|]|w o]; cbn [pstep op_ok]; intros Hok; [|right; auto|left].
  - destruct (nth_error (p_free s) k) as [o|] eqn:E; [left|right; auto]. split; [|reflexivity].
    rewrite (remove_nth_perm E) at 1. apply Permutation_middle.
  - split; [|reflexivity]. rewrite (Permutation_map fst (remove_pair_perm o w _ Hok)) at 1. symmetry. apply Permutation_middle.
Qed.

Lemma pstep_inv s op : PInv s -> op_ok s op -> PInv (pstep s op).
Proof.
  intros [Hnd Hlt] Hok. unfold PInv. destruct (pstep_ids s op Hok) as [[Hp ->]|[Hp ->]].
  - split; [exact (Permutation_NoDup Hp Hnd)|]. intros x Hx. apply Hlt, (Permutation_in _ (Permutation_sym Hp)), Hx.
  - split.
    + apply (Permutation_NoDup Hp). constructor; [|exact Hnd]. intros Hin. apply Hlt in Hin. lia.
    + intros x Hx. apply (Permutation_in _ (Permutation_sym Hp)) in Hx. destruct Hx as [<-|Hx]; [lia|]. apply Hlt in Hx. lia.
Qed.

Lemma prun_inv ops : forall s, PInv s -> prun_ok s ops -> PInv (prun s ops).
Proof.
  induction ops as [|op r IH]; intros s Hi Hok; [exact Hi|].
  destruct Hok as [H1 H2]. apply IH; [apply pstep_inv; assumption|exact H2].
Qed.

Lemma pinv_init : PInv p_init.
Proof. split; [constructor|intros o []]. Qed.

Lemma pinv_single_owner s o w1 w2 i j :
  PInv s -> nth_error (p_owned s) i = Some (o, w1) -> nth_error (p_owned s) j = Some (o, w2) -> i = j.
Proof.
  intros [Hnd _] H1 H2. apply NoDup_app_r in Hnd. rewrite NoDup_nth_error in Hnd.
  apply (map_nth_error fst) in H1, H2. cbn [fst] in H1, H2. apply Hnd; [|congruence].
  apply nth_error_Some. rewrite H1. discriminate.
Qed.
