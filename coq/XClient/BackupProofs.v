From Coq Require Import List PeanoNat Lia.
From RPCX Require Import XClient.FailMode XClient.FailModeProofs XClient.Backup.
Import ListNotations.

(* the attempts a call adds to the log *)
Definition added (before after : env) : list (nat * outcome) :=
  skipn (length (attempts before)) (attempts after).

Lemma added_is before after l : attempts after = attempts before ++ l -> added before after = l.
Proof.
  intros H. unfold added. rewrite H, skipn_app, skipn_all, Nat.sub_diag. reflexivity.
Qed.

Definition answers (l : list (nat * outcome)) (a : option errk * option nat) : Prop :=
  fst a = None -> exists s r, In (s, OOk r) l /\ snd a = Some r.

Lemma go_attempt_spec en :
  let '(en', err, a) := go_attempt en in
  exists l, attempts en' = attempts en ++ l /\ length l <= 1 /\
    match a with None => l = [] /\ err <> None | Some a => answers l a end.
Proof.
  unfold go_attempt. pose proof (select_client_spec en) as Hs.
  destruct (select_client en) as [[[en1 k] cl] [ee|]]; destruct Hs as [Hs _].
  - exists []. rewrite app_nil_r. split; [exact Hs|]. split; [cbn; lia|easy].
  - pose proof (wrap_call_spec en1 cl) as Hw. destruct (wrap_call en1 cl) as [[en2 cerr] rep].
    destruct Hw as [(Ha & -> & ->)|(s & o & _ & Ha & -> & ->)].
    + exists []. rewrite app_nil_r. split; [congruence|]. split; [cbn; lia|discriminate].
    + exists [(s, o)]. split; [congruence|]. split; [cbn; lia|].
      destruct o; try discriminate. intros _. exists s, reply. cbn. auto.
Qed.

Definition bcontract (en : env) (r : xres) : Prop :=
  length (added en (x_env r)) <= 2 /\
  (x_err r = None -> exists s rep, In (s, OOk rep) (added en (x_env r)) /\ x_reply r = Some rep) /\
  (added en (x_env r) = [] -> x_err r <> None).

Lemma decided_contract en en' l a :
  attempts en' = attempts en ++ l -> length l <= 2 -> answers l a -> bcontract en (decided en' a).
Proof.
  intros Ha Hl Hans. unfold bcontract. destruct a as [[e|] r]; cbn [decided x_env x_err x_reply];
    rewrite (added_is _ _ _ Ha); (split; [exact Hl|]); [easy|].
  destruct (Hans eq_refl) as (s & rp & Hin & Hr). split; [eauto|]. intros ->. destruct Hin.
Qed.

Lemma failed_contract en en' l err :
  attempts en' = attempts en ++ l -> length l <= 2 -> err <> None -> bcontract en (mkRes en' err None).
Proof. intros Ha Hl He. unfold bcontract. cbn. rewrite (added_is _ _ _ Ha). easy. Qed.

Lemma answers_app l l' a : answers l a \/ answers l' a -> answers (l ++ l') a.
Proof. intros [H|H] Hn; destruct (H Hn) as (s & r & Hin & Hr); exists s, r; rewrite in_app_iff; auto. Qed.

Theorem backup_contract sc en : bcontract en (xcall_backup sc en).
Proof.
  unfold xcall_backup. pose proof (select_client_spec en) as H0.
  destruct (select_client en) as [[[en0 k] cl0] err0]. destruct H0 as [H0 _].
  destruct (match err0 with Some ee => ctx_canceled ee | None => false end) eqn:Ec.
  { destruct err0; [|discriminate]. apply failed_contract with (l := []); [rewrite app_nil_r; exact H0|cbn; lia|discriminate]. }
  pose proof (go_attempt_spec en0) as H1. destruct (go_attempt en0) as [[en1 err1] a1].
  destruct H1 as (l1 & L1 & N1 & S1). rewrite H0 in L1.
  (* when the timer fires *)
  set (T := let '(en2, err2, a2) := go_attempt en1 in _).
  assert (HT : bcontract en T).
  { subst T. pose proof (go_attempt_spec en1) as H2. destruct (go_attempt en1) as [[en2 err2] a2].
    destruct H2 as (l2 & L2 & N2 & S2).
    assert (L3 : attempts (match err2 with Some ee => if uncover ee then remove_client en2 k else en2 | None => en2 end)
                 = attempts en ++ l1 ++ l2) by (rewrite maybe_remove_attempts, L2, L1, app_assoc; reflexivity).
    assert (N3 : length (l1 ++ l2) <= 2) by (rewrite app_length; lia).
    destruct a1 as [a|], a2 as [b|]; try (apply (decided_contract _ _ _ _ L3 N3), answers_app).
    - destruct (b_first_primary sc); auto.
    - auto.
    - auto.
    - apply (failed_contract _ _ _ _ L3 N3), S1. }
  clearbody T. destruct a1 as [a|], (b_early sc); try exact HT.
  apply (decided_contract _ _ l1); [exact L1|lia|exact S1].
Qed.

Lemma decided_env en a : x_env (decided en a) = en.
Proof. destruct a as [[e|] r]; reflexivity. Qed.
