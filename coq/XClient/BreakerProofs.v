From Coq Require Import List ZArith Bool Lia.
From RPCX Require Import XClient.Breaker.
Import ListNotations.
Open Scope Z_scope.

(* the trace specification: the answer event e must get after history h (most recent first), from is_open alone *)
Definition out_spec (c : bcfg) (h : list bevent) (e : bevent) : bout :=
  match e with
  | EReady t => OReady (negb (is_open c h t))
  | ECall t ok _ => if is_open c h t then ORefused else OInvoked ok
  | EFail _ | ESuccess _ => ONone
  end.

(* the machine state a history determines *)
Definition st_of (c : bcfg) (h : list bevent) : breaker := mkB (fails_aux c h) (touch c h).

(* is_open asks with <=? what the machine asks the other way round with <? *)
Lemma is_open_ltb c h t :
  is_open c h t = negb (fails_aux c h <? threshold c) && negb (window c <? t - touch c h).
Proof. unfold is_open. rewrite !Z.leb_antisym. reflexivity. Qed.

Lemma step_spec c h e :
  b_step c (st_of c h) e = (st_of c (e :: h), out_spec c h e).
Proof.
  destruct e as [t|t ok t'|t|t]; cbn [b_step out_spec]; try reflexivity;
    unfold b_ready, st_of; rewrite is_open_ltb; cbn [b_last b_failures touch fails_aux];
    destruct (window c <? t - touch c h), (fails_aux c h <? threshold c); try destruct ok; reflexivity.
Qed.

Fixpoint outs_spec (c : bcfg) (h : list bevent) (tr : list bevent) : list bout :=
  match tr with
  | [] => []
  | e :: r => out_spec c h e :: outs_spec c (e :: h) r
  end.

Theorem run_spec c tr : forall h,
  b_run c (st_of c h) tr = (st_of c (rev tr ++ h), outs_spec c h tr).
Proof.
  induction tr as [|e r IH]; intros h; cbn [b_run rev app outs_spec]; [reflexivity|].
  rewrite step_spec, IH, <- app_assoc. reflexivity.
Qed.

Lemma fails_after_failures c ts : forall h,
  fails_aux c (map EFail ts ++ h) = fails_aux c h + Z.of_nat (length ts).
Proof.
  induction ts as [|t ts IH]; intros h; cbn [map app fails_aux length]; [lia|]. rewrite IH. lia.
Qed.

Lemma fails_nonneg c h : 0 <= fails_aux c h.
Proof.
  induction h as [|e h IH]; cbn [fails_aux]; [lia|].
  destruct e as [t|t ok t'|t|t]; try lia.
  - destruct (window c <? t - touch c h); lia.
  - destruct (window c <? t - touch c h); [destruct ok; lia|].
    destruct (fails_aux c h <? threshold c); [destruct ok; lia|lia].
Qed.

(* threshold failures with no success in between, observed within the window of the last one: open,
   whatever happened before them *)
Theorem threshold_failures_open c h t0 ts t :
  threshold c <= Z.of_nat (length (t0 :: ts)) -> t - t0 <= window c ->
  is_open c (map EFail (t0 :: ts) ++ h) t = true.
Proof.
  intros Hk Ht. unfold is_open. rewrite fails_after_failures. cbn [map app touch].
  pose proof (fails_nonneg c h). apply andb_true_iff. split; apply Z.leb_le; [lia|exact Ht].
Qed.

Lemma xb_dial_attempted c s t ok :
  (xb_exists s = false \/ b_failures (xb_b s) < threshold c \/ window c < t - b_last (xb_b s)) ->
  let b' := if xb_exists s && (window c <? t - b_last (xb_b s)) then b_reset t else xb_b s in
  xb_dial c s t ok = (mkXB true (if ok then b' else b_fail b' t), Dialed ok).
Proof.
  intros H. unfold xb_dial, b_ready. destruct (xb_exists s); cbn [andb]; [|reflexivity].
  destruct (Z.ltb_spec (window c) (t - b_last (xb_b s))); [reflexivity|].
  destruct (Z.ltb_spec (b_failures (xb_b s)) (threshold c)); [reflexivity|].
  destruct H as [H|[H|H]]; [discriminate|lia|lia].
Qed.
