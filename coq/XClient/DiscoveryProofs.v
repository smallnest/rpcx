(* `settles s`: what the watch loop ends on from s; it and `lastpub` obey the same step law, hence both are the newest
   publication (tracks_newest). *)
From Coq Require Import List PeanoNat Lia.
From RPCX Require Import XClient.Discovery.
Import ListNotations.

Section DiscP.
Context {snapshot : Type}.
Notation wst := (@wstate snapshot).

(* what the watch loop will have applied once it has emptied the channel as it stands *)
Definition settles (s : wst) : option snapshot := last (applied s :: map Some (q s)) None.

Lemma settles_dstep (s : wst) e :
  settles (dstep s e) = match e with Pub u => Some u | Consume => settles s end.
Proof.
  unfold settles. destruct e as [u|]; cbn [dstep q applied].
  - unfold notify. destruct (length (q s) <? qcap); rewrite map_app, app_comm_cons; apply last_last.
  - destruct (q s) as [|x r] eqn:E; cbn [q applied]; rewrite ?E; reflexivity.
Qed.

Lemma settles_empty (s : wst) : q s = [] -> applied s = settles s.
Proof. unfold settles. intros ->. reflexivity. Qed.

Lemma drain_settles fuel : forall s : wst, length (q s) <= fuel -> applied (drain fuel s) = settles s.
Proof.
  induction fuel as [|f IH]; intros s H; cbn [drain].
  - destruct (q s) eqn:E; [apply settles_empty, E|cbn in H; lia].
  - destruct (q s) as [|x r] eqn:E; [apply settles_empty, E|].
    rewrite IH, settles_dstep; [reflexivity|]. cbn [dstep]. rewrite E. cbn in *. lia.
Qed.

Definition newest (es : list (@devent snapshot)) (a : option snapshot) : option snapshot :=
  fold_left (fun acc e => match e with Pub u => Some u | Consume => acc end) es a.

Lemma tracks_newest (o : wst -> option snapshot) :
  (forall s e, o (dstep s e) = match e with Pub u => Some u | Consume => o s end) ->
  forall es s, o (drun s es) = newest es (o s).
Proof.
  intros Ho. induction es as [|e r IH]; intros s; [reflexivity|].
  cbn [drun newest fold_left]. rewrite <- Ho. apply IH.
Qed.

Lemma lastpub_dstep (s : wst) e :
  lastpub (dstep s e) = match e with Pub u => Some u | Consume => lastpub s end.
Proof. destruct e as [u|]; cbn [dstep]; [|destruct (q s)]; reflexivity. Qed.

Theorem drained_applies_newest es (s : wst) :
  applied (drain (length (q (drun s es))) (drun s es)) = newest es (settles s).
Proof. rewrite drain_settles by reflexivity. apply (tracks_newest settles), settles_dstep. Qed.

Lemma newest_from es u : newest es None = Some u -> forall b : option snapshot, newest es b = Some u.
Proof.
  induction es as [|[u'|] r IH]; cbn [newest fold_left]; [discriminate|intros H b; exact H|exact IH].
Qed.
End DiscP.
