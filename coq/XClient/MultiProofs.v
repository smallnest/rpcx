From Coq Require Import List PeanoNat Bool Lia Permutation.
From RPCX Require Import XClient.Multi.
Import ListNotations.

Definition all_ok (v : list mo) : Prop := forall i, i < length v -> is_mok (out_at v i) = true.
Definition some_ok (v : list mo) : Prop := exists i, i < length v /\ is_mok (out_at v i) = true.
Definition is_order (v : list mo) (order : list nat) : Prop := Permutation order (seq 0 (length v)).

Lemma order_in v order i : is_order v order -> (In i order <-> i < length v).
Proof.
  intros H. split; intros Hi.
  - apply (Permutation_in _ H) in Hi. apply in_seq in Hi. lia.
  - apply (Permutation_in _ (Permutation_sym H)). apply in_seq. lia.
Qed.

Lemma order_length v order : is_order v order -> length order = length v.
Proof. intros H. rewrite (Permutation_length H). apply seq_length. Qed.

Lemma errs_of_app v a b : errs_of v (a ++ b) = errs_of v a ++ errs_of v b.
Proof. apply flat_map_app. Qed.

Lemma errs_of_nil_iff v done : errs_of v done = [] <-> forall i, In i done -> is_mok (out_at v i) = true.
Proof.
  rewrite <- Forall_forall. induction done as [|i r IH]; cbn; [easy|].
  rewrite Forall_cons_iff, <- IH. destruct (out_at v i); cbn; intuition discriminate.
Qed.

Lemma no_errs_iff_all_ok v order : is_order v order -> (errs_of v order = [] <-> all_ok v).
Proof.
  intros Ho. rewrite errs_of_nil_iff.
  split; intros H i Hi; apply H, (order_in v order i Ho), Hi.
Qed.

Lemma errs_of_cons v i r :
  errs_of v (i :: r) = match out_at v i with MOk _ => [] | MFail e => [e] end ++ errs_of v r.
Proof. reflexivity. Qed.

(* Broadcast stops at the first failure, so it reports the first error in completion order *)
Lemma bcast_loop_spec v : forall order processed,
  bcast_loop v order processed (length order) = errs_of v processed ++ firstn 1 (errs_of v order).
Proof.
  induction order as [|i r IH]; intros processed; cbn [bcast_loop length]; [apply app_nil_end|].
  rewrite Nat.sub_1_r, Nat.pred_succ, errs_of_app, !errs_of_cons. unfold is_mok.
  destruct (out_at v i) as [x|e] eqn:E; cbn [negb orb app firstn]; [|rewrite orb_true_r; reflexivity].
  rewrite orb_false_r. destruct r as [|j r']; [reflexivity|]. cbn [length Nat.eqb].
  rewrite IH, errs_of_app, errs_of_cons, E, <- app_assoc. reflexivity.
Qed.

Theorem broadcast_reports_first_error v order : is_order v order ->
  fst (broadcast v order) = firstn 1 (errs_of v order).
Proof. intros Ho. unfold broadcast. rewrite <- (order_length v order Ho). apply bcast_loop_spec. Qed.

Lemma fork_loop_spec v : forall order processed,
  fork_loop v order processed (length order) =
  if existsb (fun i => is_mok (out_at v i)) order then [] else errs_of v (processed ++ order).
Proof.
  induction order as [|i r IH]; intros processed; cbn [fork_loop length existsb]; [rewrite app_nil_r; reflexivity|].
  destruct (is_mok (out_at v i)); cbn [orb]; [reflexivity|]. rewrite Nat.sub_1_r, Nat.pred_succ.
  destruct r as [|j r']; [reflexivity|]. cbn [length Nat.eqb]. rewrite IH, <- app_assoc. reflexivity.
Qed.

Theorem fork_reports v order : is_order v order ->
  fst (fork v order) = if existsb (fun i => is_mok (out_at v i)) order then [] else errs_of v order.
Proof. intros Ho. unfold fork. rewrite <- (order_length v order Ho). apply fork_loop_spec. Qed.

Lemma ok_in_order v order : is_order v order ->
  (existsb (fun i => is_mok (out_at v i)) order = true <-> some_ok v).
Proof.
  intros Ho. rewrite existsb_exists.
  split; intros (i & Hi & Hok); exists i; split; auto; apply (order_in v order i Ho), Hi.
Qed.

Lemma all_ok_some_ok v : v <> [] -> all_ok v -> some_ok v.
Proof. intros Hne H. exists 0. destruct v; [easy|]. split; [cbn; lia|apply H; cbn; lia]. Qed.

Lemma first_ok_spec v order :
  match first_ok v order with
  | Some r => exists i, In i order /\ out_at v i = MOk r
  | None => forall i, In i order -> is_mok (out_at v i) = false
  end.
Proof.
  induction order as [|j rest IH]; cbn [first_ok]; [intros i []|].
  destruct (out_at v j) eqn:E; [exists j; split; [left; reflexivity|exact E]|].
  destruct (first_ok v rest).
  - destruct IH as (i & Hi & Ei). exists i. split; [right; exact Hi|exact Ei].
  - intros i [<-|Hi]; [rewrite E; reflexivity|auto].
Qed.
