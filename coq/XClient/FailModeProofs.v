(* What one xClient call delivers: `contract` on the requests it added to the log (`delivers`), for the retry loop by
   induction on the rounds left (retry_loop_spec), then for the three modes (xcall_delivers). *)
From Coq Require Import List PeanoNat Lia.
From RPCX Require Import XClient.FailMode.
Import ListNotations.

Definition terminal (o : outcome) : Prop := o <> OLost.
Definition is_ok (o : outcome) : Prop := exists r, o = OOk r.

Lemma upd_length {A} i (f : A -> A) (l : list A) : length (upd i f l) = length l.
Proof. revert i. induction l as [|x l IH]; intros [|i]; cbn; auto. Qed.

Lemma get_client_spec en k :
  let '(en', cl, e) := get_client en k in
  attempts en' = attempts en /\ rr en' = rr en /\ length (servers en') = length (servers en) /\
  match cl with Some s => k = Some s /\ e = None | None => e <> None end.
Proof.
  unfold get_client. destruct k as [s|]; [|easy].
  destruct (nth_error (servers en) s) as [sv|]; [|easy].
  destruct (s_cached sv); [easy|]. destruct (s_dials sv) as [|[|] rest]; cbn; rewrite upd_length; easy.
Qed.

Lemma select_client_spec en :
  let '(en', k, cl, e) := select_client en in
  attempts en' = attempts en /\ match cl with Some s => k = Some s /\ e = None | None => e <> None end.
Proof.
  unfold select_client. destruct (length (servers en)) as [|n]; [easy|].
  set (en1 := mkEnv _ _ _). pose proof (get_client_spec en1 (Some (rr en mod S n))) as H.
  destruct (get_client en1 _) as [[en2 cl] e]. split; apply H.
Qed.

Lemma select_client_key en n : length (servers en) = S n ->
  let '(en1, k, _, _) := select_client en in
  k = Some (rr en mod S n) /\ length (servers en1) = S n /\ rr en1 = rr en mod S n + 1.
Proof.
  intros El. unfold select_client. rewrite El.
  set (k := rr en mod S n). set (en0 := mkEnv (servers en) (k + 1) (attempts en)).
  pose proof (get_client_spec en0 (Some k)) as H. destruct (get_client en0 (Some k)) as [[en1 cl] e].
  destruct H as (_ & Hr & Hl & _). rewrite Hl, Hr. auto.
Qed.

Lemma rr_next_differs k m : 2 <= m -> k < m -> k <> (k + 1) mod m.
Proof.
  intros Hm Hk. destruct (Nat.eq_dec (k + 1) m) as [E|E].
  - rewrite E, Nat.mod_same by lia. lia.
  - rewrite Nat.mod_small by lia. lia.
Qed.

Lemma remove_client_attempts en k : attempts (remove_client en k) = attempts en.
Proof. destruct k; reflexivity. Qed.

(* the `if uncoverError(err) { removeClient }` that follows every failed attempt *)
Lemma maybe_remove_attempts en k (e : option errk) :
  attempts (match e with Some ee => if uncover ee then remove_client en k else en | None => en end) = attempts en.
Proof. destruct e as [ee|]; [destruct (uncover ee)|]; auto using remove_client_attempts. Qed.

(* what wrapCall's caller is given for an outcome *)
Definition err_of (o : outcome) : option errk :=
  match o with OOk _ => None | OSvc => Some XSvc | OLost => Some XLost | OCtx => Some XCtx | ODeadline => Some XDeadline end.
Definition rep_of (o : outcome) : option nat := match o with OOk r => Some r | _ => None end.

Lemma wrap_call_spec en cl :
  let '(en', cerr, rep) := wrap_call en cl in
  (attempts en' = attempts en /\ cerr = Some XUnavailable /\ rep = None) \/
  exists s o, cl = Some s /\ attempts en' = attempts en ++ [(s, o)] /\ cerr = err_of o /\ rep = rep_of o.
Proof.
  unfold wrap_call. destruct cl as [s|]; [|left; auto].
  destruct (nth_error (servers en) s) as [sv|]; [|left; auto].
  set (o := match s_calls sv with o :: _ => o | [] => OOk 0 end).
  destruct o eqn:E; right; exists s, o; subst o; rewrite E; auto.
Qed.

(* the contract, as a predicate on the requests l a call delivered, its error and its reply;
   n bounds their number, P says where they may go *)
Definition contract (P : nat -> Prop) (n : nat) (l : list (nat * outcome)) (err : option errk) (rep : option nat) :=
  length l <= n /\
  (err = None -> exists pre s rp, l = pre ++ [(s, OOk rp)] /\ rep = Some rp) /\
  (forall pre s rp, l = pre ++ [(s, OOk rp)] -> err = None /\ rep = Some rp) /\
  (forall pre s o post, l = pre ++ (s, o) :: post -> terminal o -> post = []) /\
  (forall s o, In (s, o) l -> P s).

(* what a call that found the log a and left it a ++ l delivered *)
Definition delivers P n (a : list (nat * outcome)) (r : xres) : Prop :=
  exists l, attempts (x_env r) = a ++ l /\ contract P n l (x_err r) (x_reply r).

Lemma delivers_nothing P n a en' err rep : attempts en' = a -> err <> None -> delivers P n a (mkRes en' err rep).
Proof.
  intros Ha He. exists []. split; [rewrite app_nil_r; exact Ha|]. split; [cbn; lia|]. split; [easy|].
  split; [|split]; [intros [|? ?]; discriminate ..|intros ? ? []].
Qed.

Lemma delivers_one (P : nat -> Prop) n a en' s o :
  attempts en' = a ++ [(s, o)] -> P s -> delivers P (S n) a (mkRes en' (err_of o) (rep_of o)).
Proof.
  intros Ha HP. exists [(s, o)]. split; [exact Ha|]. split; [cbn; lia|]. split; [|split; [|split]].
  - destruct o; try discriminate. exists [], s, reply. auto.
  - intros pre s0 rp H. apply (app_inj_tail [] pre) in H as [_ H]. injection H as _ ->. auto.
  - intros [|? [|? ?]] s0 o0 post H _; [injection H as _ _ <-; reflexivity|discriminate ..].
  - intros s0 o0 [H|[]]. injection H as <- _. exact HP.
Qed.
Arguments delivers_one P n {a en' s o}.

(* a lost request in front of what the rest of the call delivered *)
Lemma delivers_lost (P : nat -> Prop) n a s r : P s -> delivers P n (a ++ [(s, OLost)]) r -> delivers P (S n) a r.
Proof.
  intros HP (l & Hl & L & H1 & H2 & H3 & H4). exists ((s, OLost) :: l). rewrite <- app_assoc in Hl.
  split; [exact Hl|]. split; [cbn; lia|]. split; [|split; [|split]].
  - intros He. destruct (H1 He) as (pre & s0 & rp & -> & Hr). exists ((s, OLost) :: pre), s0, rp. auto.
  - intros [|p pre] s0 rp H; [destruct l; discriminate|]. injection H as _ H. eauto.
  - intros [|p pre] s0 o post H Ht; injection H as H1' H2'; [|eauto]. congruence.
  - intros s0 o [H|H]; [injection H as <- _; exact HP|eauto].
Qed.
Arguments delivers_lost P n {a s r}.

(* the end of an iteration that did not return: get the client of the next round (fail-over: select again;
   fail-try: dial the same server again) and go round *)
Definition again (over : bool) (iters : nat) (en : env) (k : option nat) (err : option errk) : xres :=
  if over then let '(en3, k', cl', e') := select_client en in retry_loop over iters en3 k' cl' err e'
  else let '(en3, cl', e') := get_client en k in retry_loop over iters en3 k cl' err e'.

(* Stated for any bound n on the rounds left and any set P that holds the key while the key is kept (fail-try), so
   that the induction hypothesis fits the next round as it stands.  Where there is no client, or no round left, an
   error has been recorded already (selectClient's at the start, the failed attempt's in later rounds), and that is
   what is returned *)
Lemma retry_loop_spec over (P : nat -> Prop) iters : forall n en k cl err e,
  iters <= n -> (forall s, (over = false -> k = Some s) -> P s) ->
  (cl = None -> err <> None) -> (forall s, cl = Some s -> k = Some s) -> (iters = 0 -> err <> None) ->
  delivers P n (attempts en) (retry_loop over iters en k cl err e).
Proof.
  induction iters as [|iters IH]; intros n en k cl err e Hn HP Hcl Hk H0; cbn [retry_loop].
  - apply delivers_nothing; [reflexivity|]. destruct err; [discriminate|]. now elim H0.
  - (* going round again from en2 *)
    assert (Hgo : forall en2 ee m, iters <= m -> delivers P m (attempts en2) (again over iters en2 k (Some ee))).
    { intros en2 ee m Hm. unfold again. destruct over.
      - pose proof (select_client_spec en2) as Hs. destruct (select_client en2) as [[[en3 k'] cl'] e'].
        destruct Hs as [<- Hs]. apply IH; [exact Hm| |easy|intros s ->; apply Hs|easy].
        intros s _. apply HP. discriminate.
      - pose proof (get_client_spec en2 k) as Hs. destruct (get_client en2 k) as [[en3 cl'] e'].
        destruct Hs as (<- & _ & _ & Hs). apply IH; [exact Hm|exact HP|easy|intros s ->; apply Hs|easy]. }
    destruct cl as [s|].
    + pose proof (wrap_call_spec en (Some s)) as Hw. destruct (wrap_call en (Some s)) as [[en1 cerr] rep].
      destruct Hw as [(<- & -> & ->)|(s' & o & [= <-] & Ha & -> & ->)].
      * (* no such server: ErrServerUnavailable, a connection-class error *)
        cbn [ctx_canceled is_svc orb uncover]. rewrite <- (remove_client_attempts en1 k). apply Hgo. lia.
      * assert (HPs : P s) by (apply HP; auto). destruct n as [|n]; [lia|].
        (* a success, a service error, a cancelled context, an expired deadline end the call *)
        destruct o; try exact (delivers_one P n Ha HPs).
        (* connection lost: go round again *)
        cbn [err_of ctx_canceled is_svc orb uncover]. apply (delivers_lost P n HPs).
        rewrite <- Ha, <- (remove_client_attempts en1 k). apply Hgo. lia.
    + (* no client in this round: no attempt; try to get one for the next round *)
      destruct err as [ee|]; [|now elim Hcl].
      rewrite <- (maybe_remove_attempts en k (Some ee)). apply Hgo. lia.
Qed.

Definition max_attempts (m : mode) (retries : nat) : nat :=
  match m with Failfast => 1 | _ => S retries end.

Lemma xcall_delivers m retries en :
  exists k, delivers (fun s => m = Failtry -> k = Some s) (max_attempts m retries) (attempts en) (xcall m retries en).
Proof.
  unfold xcall. pose proof (select_client_spec en) as Hs.
  destruct (select_client en) as [[[en1 k] cl] err]. destruct Hs as [<- Hcl]. exists k.
  assert (Hloop : forall over, (m = Failtry -> over = false) -> m <> Failfast ->
            delivers (fun s => m = Failtry -> k = Some s) (max_attempts m retries) (attempts en1)
                     (retry_loop over (S retries) en1 k cl err None)).
  { intros over Hov Hm. apply retry_loop_spec; [destruct m; easy|intros s H Hft; auto| | |discriminate].
    - intros ->. exact Hcl.
    - intros s ->. apply Hcl. }
  destruct err as [ee|].
  { (* selectClient failed: fail-fast returns the error *)
    destruct m; [apply delivers_nothing; easy|..].
    (* fail-try and fail-over alike: they return it only if the context is cancelled, and else enter the loop *)
    all: destruct (ctx_canceled ee); [apply delivers_nothing; easy|apply Hloop; easy]. }
  (* a client was selected: fail-try and fail-over enter the loop *)
  destruct m; [|apply Hloop; easy ..].
  (* fail-fast: exactly one wrapCall *)
  destruct cl as [s|]; [|easy].
  pose proof (wrap_call_spec en1 (Some s)) as Hw. destruct (wrap_call en1 (Some s)) as [[en2 cerr] rep].
  pose proof (maybe_remove_attempts en2 k cerr) as H3.
  destruct Hw as [(Ha & -> & ->)|(s' & o & [= <-] & Ha & -> & ->)].
  - apply delivers_nothing; [congruence|discriminate].
  - apply delivers_one with (s := s); [congruence|discriminate].
Qed.
