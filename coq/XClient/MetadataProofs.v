(* Server metadata as the client reads it (XClient/Metadata.v): what interning the strings does to the tests of
   the keep rule of filterByStateAndGroup (the refinement to the interned model of XClient/Discovery.v is
   Properties/C14.v), and the weight createWeighted derives. *)
From Coq Require Import List ZArith Bool.
From RPCX Require Import Wire.Bytes Server.Gateway Server.GatewayProofs XClient.Discovery Select.SWRR Select.SWRRProofs.
From RPCX Require Import XClient.Metadata.
Import ListNotations.

Lemma beq_refl : forall a, beq a a = true.
Proof. intro a. apply beq_eq. reflexivity. Qed.
Lemma beq_false : forall a b, beq a b = false <-> a <> b.
Proof. intros a b. rewrite <- beq_eq. apply iff_sym, not_true_iff_false. Qed.

Section Intern.
Variable intern : bytes -> nat.
Hypothesis intern_inj : forall a b, intern a = intern b -> a = b.

Definition imap (kvs : list (bytes * bytes)) : list (nat * nat) :=
  map (fun kv => (intern (fst kv), intern (snd kv))) kvs.

Lemma eqb_intern : forall a b, Nat.eqb (intern a) (intern b) = beq a b.
Proof.
  intros a b. apply eq_true_iff_eq. rewrite Nat.eqb_eq, beq_eq.
  split; [apply intern_inj|congruence].
Qed.

Lemma first_val_intern : forall k x kvs, x <> [] ->
  match first_val (intern k) (imap kvs) with Some v => Nat.eqb v (intern x) | None => false end = beq (q_get k kvs) x.
Proof.
  intros k x kvs Hx. induction kvs as [|[k' v] r IH]; cbn [imap map first_val q_get fst snd].
  - destruct x; [contradiction|reflexivity].
  - rewrite eqb_intern. destruct (beq k k'); [apply eqb_intern | exact IH].
Qed.

Lemma all_vals_intern : forall k g kvs,
  existsb (Nat.eqb (intern g)) (all_vals (intern k) (imap kvs)) = existsb (beq g) (q_all k kvs).
Proof.
  intros k g kvs. unfold all_vals, q_all. induction kvs as [|[k' v] r IH]; [reflexivity|].
  cbn [imap map filter fst snd]. rewrite eqb_intern.
  destruct (beq k k'); cbn [map existsb snd]; [rewrite eqb_intern, <- IH; reflexivity | exact IH].
Qed.
End Intern.

Theorem weight_raw_is_clamped_field : forall meta, weight_raw meta = clamp_weight (weight_field meta).
Proof. intro meta. unfold weight_raw, clamp_weight. destruct (weight_field meta); reflexivity. Qed.

Theorem weight_raw_nonneg : forall meta, (0 <= weight_raw meta)%Z.
Proof.
  intro meta. rewrite weight_raw_is_clamped_field. exact (Forall_inv (clamp_nonneg [weight_field meta])).
Qed.

Theorem unparsable_metadata_is_left_alone : forall group meta,
  snd (parse_query meta) = true -> keep_raw group meta = true /\ weight_raw meta = 1%Z.
Proof.
  intros group meta H. unfold keep_raw, weight_raw, weight_field, parse_meta.
  destruct (parse_query meta) as [kvs err]. cbn [snd] in H. subst err. split; reflexivity.
Qed.
